(** C08 - 64-bit integer arithmetic is exact or reports overflow. *)
From Cel.Model Require Import Arith.
From Cel.Proofs Require Import ArithProofs.
From Coq Require Import Lia.
Open Scope Z_scope.

(** For all int operands and each of + - * / %: the result is the mathematically exact one
    ([exact]: Z arithmetic, quotient truncated toward zero, remainder with the dividend's
    sign) when it is representable, [Err EDivZero] when the divisor is 0, and
    [Err EOverflow] otherwise (MIN % -1 counts as overflow) - never another value, never
    [Crash]. *)
Theorem C08_int_exact : forall o a b, in_i64 a = true -> in_i64 b = true ->
  apply_op o (VInt a) (VInt b) =
  match exact o a b with
  | None => Err EDivZero
  | Some r => if in_i64 r && negb (min_rem_neg1 o a b) then Ok (VInt r) else Err EOverflow
  end.
Proof. exact int_char. Qed.

Theorem C08_uint_exact : forall o a b, in_u64 a = true -> in_u64 b = true ->
  apply_op o (VUInt a) (VUInt b) =
  match exact o a b with
  | None => Err EDivZero
  | Some r => if in_u64 r then Ok (VUInt r) else Err EOverflow
  end.
Proof. exact uint_op_exact. Qed.

Theorem C08_neg : forall a, in_i64 a = true ->
  v_neg (VInt a) = if a =? i64_min then Err EOverflow else Ok (VInt (- a)).
Proof. intros a Ha. rewrite neg_exact, (neg_in_i64 a Ha). now destruct (a =? i64_min). Qed.

(** (a/b)*b + a%b = a whenever both are defined. *)
Theorem C08_div_rem : forall a b q r,
  v_div (VInt a) (VInt b) = Ok (VInt q) -> v_rem (VInt a) (VInt b) = Ok (VInt r) ->
  q * b + r = a.
Proof.
  intros a b q r. cbn [v_div v_rem]. destruct (b =? 0) eqn:E; [discriminate|].
  apply Z.eqb_neq in E. unfold chk_i64. destruct (in_i64 (Z.quot a b)); [|discriminate].
  intros H1 H2. injection H1 as <-. injection H2 as <-. pose proof (Z.quot_rem' a b). lia.
Qed.

(** Division truncates toward zero; the remainder takes the sign of the dividend. *)
Theorem C08_trunc_sign : forall a b, b <> 0 ->
  Z.abs (Z.quot a b) * Z.abs b <= Z.abs a /\
  (0 <= a -> 0 <= Z.rem a b) /\ (a <= 0 -> Z.rem a b <= 0).
Proof.
  intros a b Hb. split; [rewrite Z.mul_comm; apply quot_abs_le; lia|].
  split; intros; [apply Z.rem_nonneg|apply Z.rem_nonpos]; assumption.
Qed.

(** Mixing int, uint and double operands is an error, not a coercion. *)
Theorem C08_no_mixing : forall o a b,
  is_num a = true -> is_num b = true -> same_kind a b = false ->
  apply_op o a b = Err EInvalid.
Proof.
  intros o a b. destruct a; try discriminate; destruct b; try discriminate; intros _ _ _; destruct o; reflexivity.
Qed.

Example C08_ex_overflow : apply_op OAdd (VInt i64_max) (VInt 1) = Err EOverflow.
Proof. reflexivity. Qed.
Example C08_ex_min_div : apply_op ODiv (VInt i64_min) (VInt (-1)) = Err EOverflow.
Proof. reflexivity. Qed.
Example C08_ex_min_rem : apply_op ORem (VInt i64_min) (VInt (-1)) = Err EOverflow.
Proof. reflexivity. Qed.
Example C08_ex_trunc : apply_op ODiv (VInt (-7)) (VInt 2) = Ok (VInt (-3))
                       /\ apply_op ORem (VInt (-7)) (VInt 2) = Ok (VInt (-1)).
Proof. split; reflexivity. Qed.
Example C08_ex_uint_sub : apply_op OSub (VUInt 0) (VUInt 1) = Err EOverflow.
Proof. reflexivity. Qed.
Example C08_ex_divzero : apply_op ORem (VUInt 5) (VUInt 0) = Err EDivZero.
Proof. reflexivity. Qed.

Print Assumptions C08_int_exact.
Print Assumptions C08_uint_exact.
Print Assumptions C08_neg.
Print Assumptions C08_div_rem.
Print Assumptions C08_trunc_sign.
Print Assumptions C08_no_mixing.
