(** C19 - reported references cover every name a program can look up.
    [ref_vars] / [ref_funs] transcribe Program::references.  Soundness is proved for every
    expression and context; so is the converse (no undeclared-reference failure when everything
    reported is defined) for every expression without free macro-internal identifiers - which is
    what the parser produces ([C19_expansions_closed]; the C19 stream checks [no_free_at] on every
    compiled program). *)
From Coq Require Import String.
From Cel.Model Require Import Eval Refs.
From Cel.Model Require Import Macros.
From Cel.Proofs Require Import EvalBase NoCrash RefsProofs RefsComplete.

(** If executing a program fails because a name is undeclared, that name is among the
    variables or functions the program reports - unless it is a macro-internal '@' name, which
    no source text can mention and which the macro expansions always bind
    ([C19_expansions_closed]). *)
Theorem C19_sound : forall e c n,
  fst (eval c e) = Err (EUndeclared n) ->
  starts_at n = true \/ In n (ref_vars e) \/ In n (ref_funs e).
Proof.
  intros e c n H. destruct (undeclared_is_missing e c n H) as [[Hi _]|[Hi _]]; [|auto].
  destruct (starts_at n) eqn:E; [now left|right; left; now apply fv_reported].
Qed.

(** Macro-internal accumulators are never reported. *)
Theorem C19_no_accumulators : forall e x, In x (ref_vars e) -> starts_at x = false.
Proof. exact ref_vars_no_at. Qed.

(** Host functions and built-ins cannot fabricate the error: whatever they are called with,
    their own result is never "undeclared reference". *)
Theorem C19_functions_do_not_fabricate : forall b h xs,
  okish plain (run_builtin b xs) /\ okish plain (run_host h xs).
Proof.
  intros; split; [|apply tame_plain, run_host_tame].
  exact (good_weaken _ _ _ _ _ (fun _ H => H) (fun _ _ => I) (run_builtin_good b xs)).
Qed.

(** The report is a function of the expression alone ([ref_vars] takes no context); of an
    identifier it is that identifier, unless macro-internal. *)
Theorem C19_vars_are_identifiers : forall x, ref_vars (EIdent x) = (if starts_at x then [] else [x]).
Proof. reflexivity. Qed.

(** Conversely, for an expression without free macro-internal identifiers: when the context defines
    every reported variable and function, execution never fails with an undeclared reference
    (whatever else it does). *)
Theorem C19_complete : forall e c, no_free_at e = true ->
  (forall x, In x (ref_vars e) -> exists v, lookup c x = Ok v) ->
  (forall f, In f (ref_funs e) -> get_function c f <> None) ->
  forall n, fst (eval c e) <> Err (EUndeclared n).
Proof.
  intros e c Hc Hv Hf n Hn. destruct (undeclared_is_missing e c n Hn) as [[Hi Hd]|[Hi Hd]]; [|exact (Hf n Hi Hd)].
  apply Hd, Hv, fv_reported; [exact Hi|]. exact (proj1 (no_free_at_iff e) Hc n Hi).
Qed.

(** The six macro expansions bind the accumulator they introduce: expanding closed pieces under
    an ordinary iteration variable gives a closed expression. *)
Theorem C19_expansions_closed : forall r x p q,
  no_free_at r = true -> no_free_at p = true -> no_free_at q = true -> starts_at x = false ->
  no_free_at (expand_all r x p) = true /\ no_free_at (expand_exists r x p) = true /\
  no_free_at (expand_exists_one r x p) = true /\ no_free_at (expand_map r x None p) = true /\
  no_free_at (expand_map r x (Some q) p) = true /\ no_free_at (expand_filter r x p) = true.
Proof. intros r x p q Hr Hp Hq _. exact (expansions_closed r x p q Hr Hp Hq). Qed.

Example C19_ex :
  ref_vars (ECall $"f" (Some (EIdent $"a")) [EIdent $"b"; EIdent $"@result"]) = [$"a"; $"b"] /\
  ref_funs (ECall $"f" (Some (EIdent $"a")) [EIdent $"b"]) = [$"f"].
Proof. split; reflexivity. Qed.
Example C19_ex_fail : fst (eval default_ctx (ECall $"nope" None [ELit (VInt 1)])) = Err (EUndeclared $"nope").
Proof. reflexivity. Qed.

Print Assumptions C19_sound.
Print Assumptions C19_no_accumulators.
Print Assumptions C19_functions_do_not_fabricate.
Print Assumptions C19_vars_are_identifiers.
Print Assumptions C19_complete.
Print Assumptions C19_expansions_closed.
