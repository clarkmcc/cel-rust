(** C05 - execution is pure, repeatable and safe to share across threads (partial).

    The model's evaluator is a function of (context, program) that returns no context: "an
    execution never changes the program, the context or earlier results" holds of the model by
    construction, and is therefore checked on the implementation by running histories and
    threads against this history-free model (tools/props.py, stream C05).  What is proved
    here is (a) the notion of "equal context" the property relies on, and (b) - on a model of the
    reference-count discipline behind list / string concatenation ([Heap]: owner counts,
    Arc::make_mut, Arc::get_mut, clone-on-lookup, for context variables, literals and [+]) -
    that in-place appending never reaches a buffer the context or an earlier result holds.
    Thread scheduling and the memory model are outside the model. *)
From Cel.Model Require Import Eval.
From Cel.Model Require Import Heap.
From Cel.Proofs Require Import CtxEquiv FrameProofs HeapProofs.

(** Contexts with the same functions and the same answer to every lookup - however they were
    built - give the same outcome and the same host-call log. *)
Theorem C05_equal_context : forall e c1 c2,
  funs c1 = funs c2 -> (forall x, lookup c1 x = lookup c2 x) -> eval c1 e = eval c2 e.
Proof. intros e c1 c2 Hf Hl. apply eval_equiv. now split. Qed.

(** Only the identifiers that occur in the program matter. *)
Theorem C05_frame : forall e c1 c2,
  funs c1 = funs c2 -> (forall x, In x (occ_vars e) -> lookup c1 x = lookup c2 x) -> eval c1 e = eval c2 e.
Proof.
  intros e c1 c2 Hf Hl. apply (eval_frame e (fun x => In x (occ_vars e))); [now apply Forall_forall|now split].
Qed.

(** Executing in an inner scope of one's own, holding a private variable the program does not
    mention, yields what the execution yields against the root context alone. *)
Theorem C05_private_scope : forall e c x v,
  ~ In x (occ_vars e) -> eval (define (push c) x v) e = eval c e.
Proof.
  intros e c x v Hx. apply (eval_frame e (fun y => In y (occ_vars e))); [now apply Forall_forall|].
  apply agree_define_l; [exact Hx|apply agree_push_l, agree_refl].
Qed.

Theorem C05_inner_scope : forall e c, eval (push c) e = eval c e.
Proof. intros e c. apply eval_equiv. split; reflexivity. Qed.

(** (b) One execution over the store of reference-counted buffers: no buffer that existed
    before is changed; its owner count grows by exactly the handle the result holds to it; the
    result is a context buffer (shared, one more owner) or a fresh buffer with one owner; and
    the value read from the store is the value of the sharing-free semantics [peval]. *)
Theorem C05_heap_execution : forall e ρ σ σ' r, wf σ ρ -> eval_h ρ σ e = (σ', r) ->
  result_ok ρ σ σ' r /\ read σ' r = peval (map (denote σ) ρ) e.
Proof. exact eval_h_spec. Qed.

(** Histories: after any sequence of executions (each result dropped before the next) every
    buffer of the context has the payload and the owner count it started with, and every
    execution returned what it returns alone against the original context. *)
Theorem C05_heap_history : forall es ρ σ σ' outs, wf σ ρ -> run_history ρ σ es = (σ', outs) ->
  outs = map (peval (map (denote σ) ρ)) es /\ length σ <= length σ' /\
  (forall l, l < length σ -> pl_of σ' l = pl_of σ l /\ rc_of σ' l = rc_of σ l).
Proof. exact history_spec. Qed.

(** The in-place path is real in the model: [1] + [2] reuses the left literal's buffer (two
    cells allocated, the result is the first); x + [2] with x held by the context copies. *)
Example C05_ex_in_place :
  eval_h [] [] (XAdd (XListLit [1%Z]) (XListLit [2%Z])) =
    ([{| rc := 1; pl := PList [1%Z; 2%Z] |}; {| rc := 0; pl := PList [] |}], Ok (HRef 0)) /\
  eval_h [HRef 0] [{| rc := 1; pl := PList [1%Z] |}] (XAdd (XVar 0) (XListLit [2%Z])) =
    ([{| rc := 1; pl := PList [1%Z] |}; {| rc := 0; pl := PList [] |}; {| rc := 1; pl := PList [1%Z; 2%Z] |}],
     Ok (HRef 2)) /\
  wf [{| rc := 1; pl := PList [1%Z] |}] [HRef 0].
Proof.
  split; [reflexivity|split; [reflexivity|]]. intros k [[= <-]|[]]. cbn. auto.
Qed.

Print Assumptions C05_equal_context.
(** Histories with every result kept alive (as concurrent holders of results do): read at the very
    end, each result is still what its program yields alone, and no buffer that existed at the
    start has changed its payload - a value once obtained is never changed by a later execution. *)
Theorem C05_heap_results_kept : forall es ρ σ σ' rs, wf σ ρ -> run_keep ρ σ es = (σ', rs) ->
  map (read σ') rs = map (peval (map (denote σ) ρ)) es /\ length σ <= length σ' /\
  (forall l, l < length σ -> pl_of σ' l = pl_of σ l) /\
  (forall l, l < length σ -> rc_of σ l <= rc_of σ' l) /\
  Forall (fun r => forall k, r = Ok (HRef k) -> k < length σ') rs.
Proof. exact keep_spec. Qed.

(** Any schedule.  A configuration is the store with the multiset of all handles in existence;
    threads clone a handle they hold, drop one, allocate, or append through one (Arc::make_mut,
    then write); [pinned] are the handles the context holds throughout.  For EVERY sequence of
    such steps - every interleaving of any number of threads - owner counts stay exactly the
    handles in existence, the context's handles stay among them, and every buffer the context
    holds keeps its payload.  (The model has no freeing, and of buffers the context does not hold
    the theorem says nothing.) *)
Theorem C05_any_interleaving : forall pinned ops c c',
  inv c -> (forall l, cnt l pinned <= cnt l (hs c)) -> steps pinned c ops = Some c' ->
  inv c' /\ (forall l, cnt l pinned <= cnt l (hs c')) /\
  (forall l, 0 < cnt l pinned -> pl_of (st c') l = pl_of (st c) l).
Proof. exact any_interleaving. Qed.

(** non-vacuity: the context's list [1;2] survives a thread that clones it, appends (a private
    copy is made), clones the copy, appends in place after dropping that clone, and drops all *)
Example C05_ex_interleaving :
  let c0 := {| st := [{| rc := 1; pl := PList [1; 2]%Z |}]; hs := [0] |} in
  inv c0 /\
  match steps [0] c0 [OClone 0; OAppend 0 (PList [1; 2; 3]%Z); OClone 1; ODrop 1; OAppend 1 (PList [1; 2; 3; 4]%Z); ODrop 1] with
  | Some c' => pl_of (st c') 0 = PList [1; 2]%Z /\ rc_of (st c') 0 = 1 /\ pl_of (st c') 1 = PList [1; 2; 3; 4]%Z /\ rc_of (st c') 1 = 0
  | None => False
  end.
Proof.
  split; [|vm_compute; repeat split]. apply inv_intro. intros [|[|l]]; reflexivity.
Qed.

Print Assumptions C05_any_interleaving.
Print Assumptions C05_heap_results_kept.
Print Assumptions C05_heap_execution.
Print Assumptions C05_heap_history.
Print Assumptions C05_frame.
Print Assumptions C05_private_scope.
Print Assumptions C05_inner_scope.
