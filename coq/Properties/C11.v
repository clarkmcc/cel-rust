(** C11 - variables resolve to the innermost binding and scopes never leak. *)
From Coq Require Import String.
From Cel.Model Require Import Eval Macros.
From Cel.Proofs Require Import BaseFacts EvalBase MacroProofs ContextProofs.

(** A lookup returns the value from the innermost scope that defines the name (and within a
    scope the latest definition wins); it fails exactly when no scope defines it. *)
Theorem C11_lookup_innermost : forall x ss v,
  lookup_scopes x ss = Some v <->
  exists pre s post, ss = pre ++ s :: post /\
                     (forall s', In s' pre -> str_assoc x s' = None) /\ str_assoc x s = Some v.
Proof. exact lookup_innermost. Qed.

Theorem C11_redefine_latest : forall c x v w y,
  lookup (define (define c x v) x w) x = Ok w /\
  (str_eqb y x = false -> lookup (define c x v) y = lookup c y).
Proof.
  intros. split; [apply lookup_define_same|apply lookup_define_other].
Qed.

Theorem C11_undefined : forall x ss,
  lookup_scopes x ss = None <-> forall s, In s ss -> str_assoc x s = None.
Proof. exact lookup_none. Qed.

(** Inner scopes never alter their parents, for every sequence of define / open / drop /
    lookup operations (a drop of the base scope is not expressible and ignored). *)
Theorem C11_inner_preserves_outer : forall ops d c outs base inner,
  length inner = S d -> scopes c = inner ++ base ->
  let '(d', c', _) := fold_left run_cop ops (d, c, outs) in
  exists inner', length inner' = S d' /\ scopes c' = inner' ++ base /\ funs c' = funs c.
Proof.
  intros ops d c outs base inner Hl Hs.
  apply (fold_left_invariant (above base (funs c)) run_cop (run_cop_above base (funs c))).
  exists inner. auto.
Qed.

Theorem C11_pop_push : forall c, pop (push c) = c.
Proof. intros c. now destruct c. Qed.

(** A variable may share its name with a function without either hiding the other. *)
Theorem C11_fun_var_independent : forall c x v f d,
  get_function (define c x v) f = get_function c f /\
  lookup (add_function c f d) x = lookup c x /\
  get_function (push c) f = get_function c f.
Proof. repeat split. Qed.

(** Inside a macro body (the context [bind] of C10's theorems) the iteration variable denotes
    the current element and shadows any outer variable of that name; all other names resolve
    as outside. *)
Theorem C11_iter_shadows : forall c acc x it, str_eqb x accu = false ->
  lookup (bind c acc x it) x = Ok it /\
  forall y, str_eqb y x = false -> str_eqb y accu = false -> lookup (bind c acc x it) y = lookup c y.
Proof.
  intros c acc x it Hx. split; [now rewrite lookup_bind, str_eqb_refl|].
  intros y Hy Ha. now rewrite lookup_bind, Hy, Ha.
Qed.

(** Outside the body the outer binding, or its absence, is unchanged: a lookup evaluated
    after any expression [m] (in particular a macro binding the same name) in the same context
    is the lookup in that context.  This holds of every [m] by construction: [eval] returns no
    context, so nothing [m] binds can reach what is evaluated after it. *)
Theorem C11_no_leak : forall c m x,
  eval c (EList [m; EIdent x]) =
  match eval c m with
  | (Ok v, l) => (match lookup c x with
                  | Ok w => Ok (VList [v; w])
                  | Err e => Err e
                  | Crash s => Crash s
                  end, l)
  | (Err e, l) => (Err e, l)
  | (Crash s, l) => (Crash s, l)
  end.
Proof.
  intros c m x. rewrite eval_list. cbn [list_go]. destruct (eval c m) as [[v|e|s] l]; cbn [app]; try reflexivity.
  rewrite eval_ident. destruct (lookup c x); cbn; rewrite ?app_nil_r; reflexivity.
Qed.

(** Non-vacuity. *)
Definition cx : ctx := define (push (define default_ctx $"x" (VInt 1))) $"x" (VInt 2).
Example C11_ex_inner : lookup cx $"x" = Ok (VInt 2).
Proof. reflexivity. Qed.
Example C11_ex_outer : lookup (pop cx) $"x" = Ok (VInt 1).
Proof. reflexivity. Qed.
Example C11_ex_shadow :
  eval (define default_ctx $"x" (VInt 7))
       (EList [expand_map (EList [ELit (VInt 1)]) $"x" None (EIdent $"x"); EIdent $"x"])
  = (Ok (VList [VList [VInt 1]; VInt 7]), []).
Proof. reflexivity. Qed.

Print Assumptions C11_lookup_innermost.
Print Assumptions C11_redefine_latest.
Print Assumptions C11_undefined.
Print Assumptions C11_inner_preserves_outer.
Print Assumptions C11_pop_push.
Print Assumptions C11_fun_var_independent.
Print Assumptions C11_iter_shadows.
Print Assumptions C11_no_leak.
