(** C14 - list, map and string operations agree with one another. *)
From Coq Require Import String.
From Cel.Model Require Import Eval.
From Cel.Proofs Require Import EvalBase ContainerProofs.
From Coq Require Import Lia.

(** Indexing a list with an in-range int returns that element and yields null out of range
    (negative, >= length, the i64 extremes) - never an error or a crash. *)
Theorem C14_index_list : forall l i,
  v_index (VList l) (VInt i) =
  Ok (if (0 <=? i)%Z && (i <? Z.of_nat (length l))%Z then nth (Z.to_nat i) l VNull else VNull).
Proof.
  intros l i. cbn [v_index]. destruct (Z.ltb_spec i 0); destruct (Z.leb_spec 0 i); try lia; cbn [orb andb].
  - reflexivity.
  - destruct (Z.leb_spec (Z.of_nat (length l)) i); destruct (Z.ltb_spec i (Z.of_nat (length l))); try lia; reflexivity.
Qed.

(** A map literal of literal keys and values, the keys pairwise distinct, evaluates to exactly the
    entries written, in the order written. *)
Theorem C14_map_literal : forall c entries, distinct_from [] (map fst entries) = true ->
  eval c (EMap (map lit_entry entries)) = (Ok (VMap entries), []).
Proof. intros c entries H. rewrite eval_map. exact (map_literal_go c entries [] [] H). Qed.

(** For every map m (with non-null values) and key k the ways of asking about k agree on
    [present k m], which looks k up treating numerically equal int and uint keys as the same
    key ([map_get]). *)
Theorem C14_presence_agree : forall k m, no_null_values m ->
  v_in (value_of_key k) (VMap m) = Ok (VBool (present k m)) /\
  b_contains (VMap m) (value_of_key k) = Ok (VBool (present k m)) /\
  exists v, v_index (VMap m) (value_of_key k) = Ok v /\ (present k m = true <-> v <> VNull).
Proof.
  intros k m H. split; [now destruct k|split; [now destruct k|now apply presence_index]].
Qed.

(** ... and for identifier-like string keys so do has(m.k) and m.k (where an absent key shows
    as the no-such-key error, or as a function value when k names a registered function). *)
Theorem C14_presence_select : forall c m s, ident_like s = true ->
  has_field (VMap m) s = present (KStr s) m /\
  match member c (VMap m) s with
  | Ok (VFun _ _) | Err ENoKey =>
      present (KStr s) m = false \/ exists n r, assoc_get (KStr s) m = Some (VFun n r)
  | Ok v => map_get (KStr s) m = Some v
  | _ => False
  end.
Proof.
  intros c m s Hi. unfold present. rewrite map_get_str, (has_field_str m s Hi). split; [reflexivity|].
  unfold member. destruct (assoc_get (KStr s) m) as [v|] eqn:E.
  - destruct v; try reflexivity. right. eauto.
  - destruct (has_function c s); left; reflexivity.
Qed.

(** size is additive over + for lists and strings; concatenation preserves element order;
    the operands are values and cannot change. *)
Theorem C14_size_additive : forall (a b : list value) (s t : str),
  (let! x := v_add (VList a) (VList b) in b_size x) = Ok (VInt (Z.of_nat (length a) + Z.of_nat (length b))) /\
  (let! x := v_add (VStr s) (VStr t) in b_size x) = Ok (VInt (Z.of_N (utf8_len s) + Z.of_N (utf8_len t))).
Proof.
  intros a b s t. split; cbn.
  - rewrite app_length. do 2 f_equal. lia.
  - rewrite BaseFacts.utf8_len_app. do 2 f_equal. lia.
Qed.

Theorem C14_concat_order : forall (a b : list value) (s t : str),
  v_add (VList a) (VList b) = Ok (VList (a ++ b)) /\ v_add (VStr s) (VStr t) = Ok (VStr (s ++ t)).
Proof. intros; split; reflexivity. Qed.

(** x in l holds iff some element of l equals x. *)
Theorem C14_in_list : forall x l, v_in x (VList l) = Ok (VBool (existsb (fun e => v_eq e x) l)).
Proof. intros x l. now destruct x. Qed.

Example C14_ex_twin : present (KUint 1) [(KInt 1, VInt 0)] = true.
Proof. reflexivity. Qed.
Example C14_ex_nn : no_null_values [(KInt 1, VInt 0)].
Proof.
  intros k v. unfold map_get. cbn.
  destruct k; cbn; repeat match goal with |- context [if ?b then _ else _] => destruct b end;
    intros [= <-] || discriminate; discriminate.
Qed.
Example C14_ex_ident : ident_like $"abc" = true /\ ident_like $"true" = false.
Proof. split; reflexivity. Qed.

Print Assumptions C14_index_list.
Print Assumptions C14_map_literal.
Print Assumptions C14_presence_agree.
Print Assumptions C14_presence_select.
Print Assumptions C14_size_additive.
Print Assumptions C14_concat_order.
Print Assumptions C14_in_list.
