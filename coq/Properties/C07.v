(** C07 - each operand is evaluated at most once, left to right, in bounded work.
    The observable is the ordered log of host-function invocations (wall-clock is not modelled:
    the number of invocations stands in for it). *)
From Coq Require Import String.
From Cel.Model Require Import Eval.
From Cel.Model Require Import Parser.
From Cel.Proofs Require Import EvalBase OrderProofs CostProofs ContextProofs.
Open Scope nat_scope.

(** Without macros the number of host-function invocations of an execution is at most the
    number of call nodes of the program - for every context whose functions have extractor lists
    that touch each argument once (all built-ins do; [args_once]) - so work is linear in the
    program size, never exponential in the nesting depth.  With macros: [C07_cost_bound]. *)
Theorem C07_cost_bound_partial : forall e c, once_ctx c -> no_comp e -> loglen (eval c e) <= ncalls e.
Proof.
  intros e c Hc Hn. destruct (no_comp_cost once_ctx (fun _ => True) 0 e Hn) as [Hr <-].
  now apply cost_bound_once.
Qed.

(** With macros: the size of the program times the product of the sizes of the collections its
    nested comprehensions range over.  [cost B e] counts a comprehension as
    range + initial value + B * (condition + step) + result; the theorem holds for every
    invariant [P] of the contexts the program runs in that survives opening a scope and binding
    the program's own iteration / accumulator variables ([N]) and implies [once_ctx], provided
    every comprehension ranges over at most [B] items in every such context. *)
Theorem C07_cost_bound : forall (P : ctx -> Prop) (N : str -> Prop) (B : nat),
  (forall c, P c -> P (push c)) -> (forall c x v, P c -> N x -> P (define c x v)) ->
  (forall c, P c -> once_ctx c) ->
  forall e, ranges_le P N B e -> forall c, P c -> loglen (eval c e) <= cost B e.
Proof. exact cost_bound. Qed.

(** ... in particular, with no assumption on the context but [once_ctx], when the ranges are list
    literals of at most [B] elements. *)
Theorem C07_cost_bound_literal : forall B e c,
  once_ctx c -> lit_ranges B e -> loglen (eval c e) <= cost B e.
Proof. intros B e c Hc Hl. now apply cost_bound_once, lit_ranges_le. Qed.

Theorem C07_default_ctx_once : once_ctx default_ctx.
Proof. exact default_ctx_once. Qed.

(** KNOWN FINDING K02: the hypothesis [once_ctx] cannot be dropped.  A host function whose
    signature combines the all-arguments extractor with another extractor that has already
    resolved an argument (here [va] : (This, Arguments), called in function style) evaluates that
    argument again: a program with 2 call nodes and 3 invocations, in a context that is not
    [once_ctx].  The harness names the same function `ta`: replayed on the implementation,
    `ta(tag(1, 1))` logs tag 1 twice. *)
Theorem C07_once_refuted_for_mixed_arguments :
  exists c e, no_comp e /\ ncalls e = 2 /\ loglen (eval c e) = 3 /\ ~ once_ctx c.
Proof.
  exists mixctx, mixprog. repeat split; try reflexivity.
  intros H. inversion H as [|x l Hx _]. cbn in Hx. discriminate.
Qed.

(** A call's log, whatever the outcome, is no longer than the initial log (the receiver's), the
    logs of the argument results and one invocation together. *)
Theorem C07_call_order : forall name d this rs es log0, args_once (params d) = true ->
  loglen (call_fn name d this rs es log0) <= length log0 + length (logs_of rs) + 1.
Proof. exact call_fn_loglen. Qed.

(** The extractors only append to the log they start with, and what they append is no longer than
    the logs of the argument results together (a length bound: nothing is said of its order). *)
Theorem C07_args_logged_in_order : forall ps, args_once ps = true ->
  forall this rs es acc log o l,
  extract ps this rs es 0 acc log = (o, l) ->
  exists used, l = log ++ used /\ length used <= length (logs_of rs).
Proof. exact extract_log_once. Qed.

(** Strict binary operators: left operand, then right operand; a left error stops there. *)
Theorem C07_binop_order : forall c f o a b va la vb lb,
  binop_of_name f = Some o -> o <> BOr -> o <> BAnd ->
  eval c a = (Ok va, la) -> eval c b = (Ok vb, lb) ->
  eval c (ECall f None [a; b]) = (strict_binop o va vb, la ++ lb).
Proof.
  intros c f o a b va la vb lb Hf H1 H2 Ha Hb. rewrite (eval_strict c f o a b Hf H1 H2), Ha, Hb.
  cbn. now rewrite app_nil_r.
Qed.

Theorem C07_binop_left_error : forall c f o a b x la,
  binop_of_name f = Some o -> eval c a = (Err x, la) ->
  eval c (ECall f None [a; b]) = (Err x, la).
Proof.
  intros c f o a b x la Hf Ha. rewrite eval_call. cbn [map option_map call_dispatch].
  rewrite Hf, Ha. now destruct o.
Qed.

(** The elements of a list literal are evaluated in source order, each once: when all yield values,
    the log is the concatenation of theirs. *)
Theorem C07_list_order : forall c es (rs : list (value * list event)),
  Forall2 (fun e r => eval c e = (Ok (fst r), snd r)) es rs ->
  eval c (EList es) = (Ok (VList (map fst rs)), concat (map snd rs)).
Proof. exact list_order. Qed.

(** Non-vacuity: a chain f(f(f(x))) logs exactly three invocations. *)
Definition fctx : ctx := add_function default_ctx $"f" {| params := [XArg TyValue]; body := FHost (HArg 0) |}.
Definition ff (e : expr) : expr := ECall $"f" None [e].
Example C07_ex_chain : loglen (eval fctx (ff (ff (ff (ELit (VInt 1)))))) = 3.
Proof. reflexivity. Qed.
Example C07_ex_once : once_ctx fctx.
Proof. constructor; [reflexivity|exact default_ctx_once]. Qed.

(** Non-vacuity with a range held by a context variable: xs.all(x, xs.exists(y, f(x, y))) over
    any context binding xs to a list of at most 3 elements makes at most cost 3 = 42 invocations
    (the bound counts the operator nodes of the two expansions as well; f itself is reached at
    most 3 * 3 times) - quadratic in the range, not exponential in the nesting. *)
Definition nested_prog : expr :=
  match compile $"xs.all(x, xs.exists(y, f(x, y)))" with CExpr e => e | _ => EUnspec end.
Definition xs_inv (c : ctx) : Prop :=
  once_ctx c /\ exists l, lookup c $"xs" = Ok (VList l) /\ length l <= 3.
Example C07_ex_nested : forall c, xs_inv c -> loglen (eval c nested_prog) <= 42.
Proof.
  intros c Hc. remember nested_prog as p eqn:E. vm_compute in E. subst p.
  apply (C07_cost_bound xs_inv (fun x => str_eqb $"xs" x = false) 3); [| | | |exact Hc].
  - intros c0 (H1 & l & H2 & H3). split; [exact H1|]. exists l. now rewrite lookup_push.
  - intros c0 x v (H1 & l & H2 & H3) Hx. split; [exact H1|]. exists l. now rewrite lookup_define_other.
  - intros c0 [H _]. exact H.
  - assert (R : forall d, xs_inv d ->
                match fst (eval d (EIdent $"xs")) with
                | Ok v => match range_items v with Some its => length its <= 3 | None => True end
                | _ => True
                end).
    { intros d (_ & l & H2 & H3). rewrite eval_ident. cbn [fst]. rewrite H2. exact H3. }
    cbn [ranges_le]. repeat split; try reflexivity; exact R.
Qed.

Print Assumptions C07_cost_bound.
Print Assumptions C07_cost_bound_literal.
Print Assumptions C07_cost_bound_partial.
Print Assumptions C07_default_ctx_once.
Print Assumptions C07_once_refuted_for_mixed_arguments.
Print Assumptions C07_call_order.
Print Assumptions C07_args_logged_in_order.
Print Assumptions C07_binop_order.
Print Assumptions C07_binop_left_error.
Print Assumptions C07_list_order.
