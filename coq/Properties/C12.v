(** C12 - string and bytes literals denote exactly the characters written.
    [decode_string] / [decode_bytes] are what the visitor makes of a STRING / BYTES token
    (parse.rs unquote_string / unquote_bytes); [render] spells a string in a one-quote style with
    a free choice, per character, between the verbatim character and every applicable escape
    form; the triple-quoted forms take the same bodies (and, raw, any characters at all).
    The whole path is proved for every style ([C12_string_compiles], [C12_bytes_compiles],
    [C12_raw_compiles]): the lexer model takes the spelling as ONE STRING / BYTES token, the
    parser makes a literal of it, and its value is the string / the bytes.  Raw bytes literals
    likewise ([C12_raw_bytes_compile]); raw triple-quoted bodies may contain the quote character
    wherever that does not end the literal early ([C12_raw_quotes_compile]).  Known finding K01 (raw
    triple-quoted literals containing U+0000 or U+10FFFF are rejected by the ANTLR runtime's
    lexer) is the exclusion in [raw_ok3] / [free3]. *)
From Coq Require Import String.
From Cel.Model Require Import Surface.
From Cel.Proofs Require Import LiteralProofs LexerRoundtrip RawLiterals.
Open Scope N_scope.

(** For every string s of Unicode scalar values, both one-quote styles and every
    per-character choice of spelling, the literal evaluates to s exactly. *)
Theorem C12_string_roundtrip : forall q s ks body,
  (q = 34 \/ q = 39) -> forallb is_scalar s = true -> render q s ks = Some body ->
  decode_string (q :: body ++ [q]) = Some s.
Proof.
  intros q s ks body Hq Hs Hr.
  exact (decode_string_render q _ s ks body Hq Hs Hr (strip_short q body Hq (render_head q s ks body Hq Hr))).
Qed.

(** Bytes literals: the token decodes to the bytes of some unit sequence [us] whose code points
    are s, a [USmall] unit giving its one byte and a [UChar] unit the UTF-8 encoding of its
    character ([unit_bytes]).  Which units a spelling yields is not part of this statement;
    [C12_numeric_escapes] says it for the numeric escapes. *)
Theorem C12_bytes_roundtrip : forall p q s ks body,
  (p = ch "b" \/ p = ch "B") -> (q = 34 \/ q = 39) -> forallb is_scalar s = true ->
  render q s ks = Some body ->
  exists us, decode_bytes (p :: q :: body ++ [q]) = Some (flat_map unit_bytes us) /\ map unit_cp us = s.
Proof.
  intros p q s ks body _ Hq Hs Hr.
  exact (decode_bytes_render p q _ s ks body Hq Hs Hr (strip_short q body Hq (render_head q s ks body Hq Hr))).
Qed.

(** Raw literals perform no escape processing. *)
Theorem C12_raw_verbatim : forall p q s,
  (p = ch "r" \/ p = ch "R") -> (q = 34 \/ q = 39) ->
  (match s with c :: _ => c <> q | [] => True end) ->
  decode_string (p :: q :: s ++ [q]) = Some s.
Proof. intros p q s Hp Hq Hh. exact (decode_string_raw p _ s Hp (strip_short q s Hq Hh)). Qed.

(** Each escape form denotes the code point CEL assigns to it. *)
Theorem C12_escape_table :
  map (fun e => decode_string [34; 92; e; 34])
      [ch "a"; ch "b"; ch "f"; ch "n"; ch "r"; ch "t"; ch "v"; 92; ch "?"; 34; 39; 96] =
  map (fun v => Some [v]) [7; 8; 12; 10; 13; 9; 11; 92; 63; 34; 39; 96].
Proof. reflexivity. Qed.

(** The numeric escapes: \x / \X with two hex digits and an octal escape of three digits (the
    first at most 3) are one small unit - a single byte in a bytes literal -, \u and \U with four
    and eight hex digits are the scalar value they name. *)
Theorem C12_numeric_escapes : forall f r acc,
  (forall x ds, (x = ch "x" \/ x = ch "X") -> length ds = 2%nat -> forallb is_hex ds = true ->
     unescape (S f) false (92 :: x :: ds ++ r) acc = unescape f false r (USmall (hex_num ds 0) :: acc)) /\
  (forall ds, length ds = 4%nat -> forallb is_hex ds = true -> is_scalar (hex_num ds 0) = true ->
     unescape (S f) false (92 :: ch "u" :: ds ++ r) acc = unescape f false r (UChar (hex_num ds 0) :: acc)) /\
  (forall ds, length ds = 8%nat -> forallb is_hex ds = true -> is_scalar (hex_num ds 0) = true ->
     unescape (S f) false (92 :: ch "U" :: ds ++ r) acc = unescape f false r (UChar (hex_num ds 0) :: acc)) /\
  (forall ds, length ds = 3%nat -> forallb is_oct ds = true ->
     (match ds with d :: _ => d <= 51 | [] => False end) ->
     unescape (S f) false (92 :: ds ++ r) acc = unescape f false r (USmall (oct_num ds 0) :: acc)).
Proof.
  intros f r acc. repeat split; intros.
  - now apply un_hex2.
  - apply (un_u f _ 4); auto. left. split; reflexivity.
  - apply (un_u f _ 8); auto. right. split; reflexivity.
  - now apply un_oct.
Qed.

(** Surrogates, values beyond U+10FFFF, an unknown escape letter, too few digits and a lone
    backslash: [decode_string] has no answer (eight instances, evaluated). *)
Theorem C12_invalid_escape_rejected :
  map decode_string
      [$"'\ud800'"; $"'\udfff'"; $"'\U00110000'"; $"'\UFFFFFFFF'"; $"'\q'"; $"'\x4'"; $"'\u12'"; $"'\'"] =
  [None; None; None; None; None; None; None; None].
Proof. reflexivity. Qed.

Example C12_ex_render :
  render 34 [104; 10; 233] [CVerb; CSimple; CU4] = Some ($"h\n\u00e9").
Proof. reflexivity. Qed.

(** The triple-quoted forms: the same spellings between three-quote delimiters (34 or 39, thrice). *)
Theorem C12_string_roundtrip_triple : forall q s ks body,
  (q = 34 \/ q = 39) -> forallb is_scalar s = true -> render q s ks = Some body ->
  decode_string (q :: q :: q :: body ++ [q; q; q]) = Some s.
Proof. intros q s ks body Hq Hs Hr. exact (decode_string_render q _ s ks body Hq Hs Hr (strip_long q body Hq)). Qed.

Theorem C12_bytes_roundtrip_triple : forall p q s ks body,
  (p = ch "b" \/ p = ch "B") -> (q = 34 \/ q = 39) -> forallb is_scalar s = true ->
  render q s ks = Some body ->
  exists us, decode_bytes (p :: q :: q :: q :: body ++ [q; q; q]) = Some (flat_map unit_bytes us) /\ map unit_cp us = s.
Proof.
  intros p q s ks body _ Hq Hs Hr. exact (decode_bytes_render p q _ s ks body Hq Hs Hr (strip_long q body Hq)).
Qed.

(** [decode_string] takes a raw triple-quoted token verbatim for EVERY body - quotes, backslashes
    and newlines included (which of these texts the lexer takes as one token is
    [C12_raw_compiles] and [C12_raw_quotes_compile]). *)
Theorem C12_raw_verbatim_triple : forall p q s,
  (p = ch "r" \/ p = ch "R") -> (q = 34 \/ q = 39) ->
  decode_string (p :: q :: q :: q :: s ++ [q; q; q]) = Some s.
Proof. intros p q s Hp Hq. exact (decode_string_raw p _ s Hp (strip_long q s Hq)). Qed.

(** From source text to the value: the spelled literal (followed by a space) compiles to the
    literal expression holding exactly the string - lexer, parser and decoder together - in the
    one-quote and in the triple-quoted style. *)
Theorem C12_string_compiles : forall q s ks body,
  (q = 34 \/ q = 39) -> forallb is_scalar s = true -> render q s ks = Some body ->
  compile (text [TString (q :: body ++ [q])]) = CExpr (ELit (VStr s)) /\
  compile (text [TString (q :: q :: q :: body ++ [q; q; q])]) = CExpr (ELit (VStr s)).
Proof.
  intros q s ks body Hq Hs Hr. pose proof (render_body_ok q s ks body Hq Hr) as Hb. split.
  - apply compile_str_token; [now apply (C12_string_roundtrip q s ks)|now apply lexable_str, closes_body1].
  - apply compile_str_token; [now apply (C12_string_roundtrip_triple q s ks)|now apply lexable_str, closes_body3].
Qed.

(** Likewise for bytes literals, with the units of [C12_bytes_roundtrip]. *)
Theorem C12_bytes_compiles : forall p q s ks body,
  (p = ch "b" \/ p = ch "B") -> (q = 34 \/ q = 39) -> forallb is_scalar s = true ->
  render q s ks = Some body ->
  (exists us, map unit_cp us = s /\
     compile (text [TBytes (p :: q :: body ++ [q])]) = CExpr (ELit (VBytes (flat_map unit_bytes us)))) /\
  (exists us, map unit_cp us = s /\
     compile (text [TBytes (p :: q :: q :: q :: body ++ [q; q; q])]) = CExpr (ELit (VBytes (flat_map unit_bytes us)))).
Proof.
  intros p q s ks body Hp Hq Hs Hr. pose proof (render_body_ok q s ks body Hq Hr) as Hb.
  destruct (C12_bytes_roundtrip p q s ks body Hp Hq Hs Hr) as (us & D & Hu).
  destruct (C12_bytes_roundtrip_triple p q s ks body Hp Hq Hs Hr) as (us' & D' & Hu').
  split; [exists us|exists us']; (split; [assumption|]).
  - apply compile_bytes_token; [exact D|now apply lexable_bytes, closes_body1].
  - apply compile_bytes_token; [exact D'|now apply lexable_bytes, closes_body3].
Qed.

(** Raw literals compile to their body verbatim: one-quote style for bodies without the quote
    and line breaks, triple-quoted style for bodies without the quote character (and without
    U+0000 / U+10FFFF: known finding K01). *)
Theorem C12_raw_compiles : forall p q s,
  (p = ch "r" \/ p = ch "R") -> (q = 34 \/ q = 39) ->
  (raw_ok1 q s = true -> compile (text [TString (p :: q :: s ++ [q])]) = CExpr (ELit (VStr s))) /\
  (raw_ok3 q s = true -> compile (text [TString (p :: q :: q :: q :: s ++ [q; q; q])]) = CExpr (ELit (VStr s))).
Proof.
  intros p q s Hp Hq. split; intros H.
  - exact (raw_compiles p _ s Hp (closes_raw1 q s Hq H) (strip_short q s Hq (raw_ok1_head q s H))).
  - exact (raw_compiles p _ s Hp (closes_free3 q s Hq (raw_ok3_free q s H)) (strip_long q s Hq)).
Qed.

(** Raw bytes literals: the UTF-8 encoding of the body, verbatim. *)
Theorem C12_raw_bytes_compile : forall b p q s,
  (b = ch "b" \/ b = ch "B") -> (p = ch "r" \/ p = ch "R") -> (q = 34 \/ q = 39) ->
  (raw_ok1 q s = true -> compile (text [TBytes (b :: p :: q :: s ++ [q])]) = CExpr (ELit (VBytes (flat_map utf8_enc1 s)))) /\
  (raw_ok3 q s = true -> compile (text [TBytes (b :: p :: q :: q :: q :: s ++ [q; q; q])]) = CExpr (ELit (VBytes (flat_map utf8_enc1 s)))).
Proof.
  intros b p q s Hb Hp Hq. split; intros H.
  - exact (raw_bytes_compiles b p _ s Hb Hp (closes_raw1 q s Hq H) (strip_short q s Hq (raw_ok1_head q s H))).
  - exact (raw_bytes_compiles b p _ s Hb Hp (closes_free3 q s Hq (raw_ok3_free q s H)) (strip_long q s Hq)).
Qed.

(** Raw triple-quoted bodies with quotes in them: every body without U+0000 / U+10FFFF in which
    three consecutive quotes do not occur before the closing delimiter ([free3]: no position of
    the body starts three quotes of body ++ two quotes - so the body does not end with a quote
    either), string and bytes. *)
Theorem C12_raw_quotes_compile : forall b p q s,
  (b = ch "b" \/ b = ch "B") -> (p = ch "r" \/ p = ch "R") -> (q = 34 \/ q = 39) -> free3 q s = true ->
  compile (text [TString (p :: q :: q :: q :: s ++ [q; q; q])]) = CExpr (ELit (VStr s)) /\
  compile (text [TBytes (b :: p :: q :: q :: q :: s ++ [q; q; q])]) = CExpr (ELit (VBytes (flat_map utf8_enc1 s))).
Proof.
  intros b p q s Hb Hp Hq H. pose proof (closes_free3 q s Hq H) as Hc. pose proof (strip_long q s Hq) as Hd. split.
  - exact (raw_compiles p _ s Hp Hc Hd).
  - exact (raw_bytes_compiles b p _ s Hb Hp Hc Hd).
Qed.

(** [free3] includes the quote-free bodies of [C12_raw_compiles]. *)
Theorem C12_raw_ok3_free : forall q s, raw_ok3 q s = true -> free3 q s = true.
Proof. exact raw_ok3_free. Qed.

Example C12_ex_raw_quotes :
  free3 39 $"it's ""x"" '' ok" = true /\ free3 39 $"ends with '" = false /\ free3 39 $"a'''b" = false /\
  compile $"br'''it's ''e''' " = CExpr (ELit (VBytes [105; 116; 39; 115; 32; 39; 39; 101])).
Proof. repeat split. Qed.

Example C12_ex_compiles : compile $"""h\n\u00e9"" " = CExpr (ELit (VStr [104; 10; 233])).
Proof. exact (proj1 (C12_string_compiles 34 [104; 10; 233] [CVerb; CSimple; CU4] _ (or_introl eq_refl) eq_refl eq_refl)). Qed.
Example C12_ex_raw : compile $"r'''a\b""c''' " = CExpr (ELit (VStr $"a\b""c")).
Proof. exact (proj2 (C12_raw_compiles (ch "r") 39 $"a\b""c" (or_introl eq_refl) (or_intror eq_refl)) eq_refl). Qed.

Print Assumptions C12_raw_compiles.
Print Assumptions C12_raw_bytes_compile.
Print Assumptions C12_raw_quotes_compile.
Print Assumptions C12_raw_ok3_free.
Print Assumptions C12_string_compiles.
Print Assumptions C12_bytes_compiles.
Print Assumptions C12_string_roundtrip.
Print Assumptions C12_bytes_roundtrip.
Print Assumptions C12_raw_verbatim.
Print Assumptions C12_escape_table.
Print Assumptions C12_numeric_escapes.
Print Assumptions C12_invalid_escape_rejected.
Print Assumptions C12_string_roundtrip_triple.
Print Assumptions C12_bytes_roundtrip_triple.
Print Assumptions C12_raw_verbatim_triple.
