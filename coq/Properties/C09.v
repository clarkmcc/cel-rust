(** C09 - equality and ordering are coherent and numerically exact across types. *)
From Cel.Model Require Import Compare.
From Cel.Proofs Require Import BaseFacts CompareProofs FloatOrder EqSymmetry EqEquiv.
Open Scope Z_scope.

(** a != b is the negation of a == b. *)
Theorem C09_ne_neg : forall a b, v_ne a b = negb (v_eq a b).
Proof. reflexivity. Qed.

(** Comparisons among int, uint and double compare the numbers denoted ([den]: the exact
    rational value, +-infinity or NaN), with NaN unordered - for every pair in which at most
    one operand is a double.  (For two doubles [v_cmp] is SpecFloat's IEEE-754 comparison: see
    [C09_exact_doubles].) *)
Theorem C09_exact : forall a b da db,
  den a = Some da -> den b = Some db -> is_dbl a && is_dbl b = false ->
  v_cmp a b = xcmp da db /\
  v_eq a b = match xcmp da db with Some Eq => true | _ => false end.
Proof. intros; split; [now apply cmp_exact|now apply eq_exact]. Qed.

(** Wherever < is defined exactly one of a<b, a==b, a>b holds. *)
Theorem C09_trichotomy : forall a b c, v_cmp a b = Some c ->
  match c with
  | Lt => is_true (v_lt a b) = true /\ v_eq a b = false /\ is_true (v_gt a b) = false
  | Eq => is_true (v_lt a b) = false /\ v_eq a b = true /\ is_true (v_gt a b) = false
  | Gt => is_true (v_lt a b) = false /\ v_eq a b = false /\ is_true (v_gt a b) = true
  end.
Proof. exact trichotomy. Qed.

(** Wherever <= is defined, a<=b iff a<b || a==b. *)
Theorem C09_le_iff : forall a b c, v_cmp a b = Some c ->
  is_true (v_le a b) = is_true (v_lt a b) || v_eq a b.
Proof. intros a b c H. unfold v_le, v_lt. rewrite H, (cmp_eq_coherent a b c H). now destruct c. Qed.

(** a<b iff b>a (for all values, comparable or not). *)
Theorem C09_antisym : forall a b,
  v_cmp b a = option_map CompOpp (v_cmp a b) /\ is_true (v_lt a b) = is_true (v_gt b a).
Proof.
  intros a b. split; [apply cmp_antisym|].
  unfold v_lt, v_gt. rewrite (cmp_antisym a b). now destruct (v_cmp a b) as [[]|].
Qed.

(** Transitivity of < wherever it is defined: numbers of the three kinds mixed freely (by the
    exact denotation - for two doubles see [C09_exact_doubles]), strings, bools, durations,
    timestamps.  [vvalid]: a double operand is an IEEE-754 double (SpecFloat's [valid_binary]);
    every 64-bit pattern decodes to one ([C09_bits_valid]). *)
Theorem C09_trans : forall a b c, vvalid a -> vvalid b -> vvalid c ->
  v_cmp a b = Some Lt -> v_cmp b c = Some Lt -> v_cmp a c = Some Lt.
Proof. exact cmp_trans. Qed.

(** Comparisons among int, uint and double compare the numbers denoted - for every pair, two
    doubles included: SpecFloat's IEEE comparison of valid doubles is the comparison of the
    rationals m * 2^e they denote (sign, then exponent, then mantissa decide exactly as the
    values do, because a valid mantissa has 53 bits unless the exponent is the smallest). *)
Theorem C09_exact_doubles : forall a b da db, vvalid a -> vvalid b ->
  den a = Some da -> den b = Some db ->
  v_cmp a b = xcmp da db /\
  v_eq a b = match xcmp da db with Some Eq => true | _ => false end.
Proof. intros; split; [now apply cmp_exact_all|now apply eq_exact_all]. Qed.

Theorem C09_bits_valid : forall bits, vvalid (VDbl (f64_of_bits bits)).
Proof. exact bits_valid. Qed.

(** Strings compare by code point (lexicographically). *)
Theorem C09_string_codepoint_order : forall a b,
  (v_cmp (VStr a) (VStr b) = Some Lt <-> lex_lt a b) /\
  (v_eq (VStr a) (VStr b) = true <-> a = b).
Proof.
  intros a b. split.
  - cbn [v_cmp]. rewrite <- str_cmp_lt. split; [intros [= H]; exact H|intros ->; reflexivity].
  - cbn [v_eq]. apply str_eqb_eq.
Qed.

(** Lists are equal exactly when they have the same length and pointwise equal elements;
    maps exactly when they have the same number of entries and every entry of one is found,
    with an equal value, in the other. *)
Theorem C09_list_map_eq : forall la lb ma mb,
  (v_eq (VList la) (VList lb) = true <-> Forall2 (fun x y => v_eq x y = true) la lb) /\
  (v_eq (VMap ma) (VMap mb) = true <->
   length ma = length mb /\
   Forall (fun kv => exists v', assoc_get (fst kv) mb = Some v' /\ v_eq (snd kv) v' = true) ma).
Proof. intros; split; [apply v_eq_list|apply v_eq_map]. Qed.

(** Values of unrelated types are unequal and not orderable; NaN is unordered and unequal
    to every number. *)
Theorem C09_unrelated : forall a b, kind_of a <> kind_of b -> v_eq a b = false /\ v_cmp a b = None.
Proof. exact unrelated. Qed.

Theorem C09_nan : forall b, kind_of b = KNum ->
  v_eq (VDbl S754_nan) b = false /\ v_cmp (VDbl S754_nan) b = None /\
  v_eq b (VDbl S754_nan) = false /\ v_cmp b (VDbl S754_nan) = None.
Proof.
  destruct b; try discriminate; intros _; cbn; repeat split; now destruct f.
Qed.

(** max of a non-empty collection, when it returns a value, returns one of the elements that
    bounds all the others: [C09_minmax] for any values on which <= is reflexive and transitive
    (despite its name it is about max, [pick_list Gt], only: nothing is stated of min), and
    [C09_max_intlike] for int/uint collections. *)
Theorem C09_minmax : forall acc l m,
  (forall x y z, In x (acc :: l) -> In y (acc :: l) -> In z (acc :: l) ->
     le_or_eq (v_cmp x y) -> le_or_eq (v_cmp y z) -> le_or_eq (v_cmp x z)) ->
  (forall x, In x (acc :: l) -> le_or_eq (v_cmp x x)) ->
  pick_list Gt (acc :: l) = Ok m ->
  In m (acc :: l) /\ forall x, In x (acc :: l) -> le_or_eq (v_cmp x m).
Proof.
  intros acc l m Htr Hrefl. cbn [pick_list].
  apply (fold_pick_max_spec (fun x => In x (acc :: l))); auto. now apply Forall_forall.
Qed.

Theorem C09_max_intlike : forall l m,
  l <> [] -> Forall (fun v => zkey v <> None) l -> v_max [VList l] = Ok m ->
  In m l /\ forall x, In x l -> le_or_eq (v_cmp x m).
Proof. intros l m Hn Hall H. exact (max_numbers l m Hn (Forall_impl _ intlike_num_ok Hall) H). Qed.

(** ... and for numbers of the three kinds mixed freely (doubles being IEEE-754 doubles, no NaN):
    max returns an element that bounds all the others. *)
Theorem C09_max_numbers : forall l m, l <> [] -> Forall num_ok l -> pick_list Gt l = Ok m ->
  In m l /\ forall x, In x l -> le_or_eq (v_cmp x m).
Proof. exact max_numbers. Qed.

Example C09_ex_2_53 : v_eq (VInt 9007199254740993) (VDbl (f64_of_Z 9007199254740992)) = false.
Proof. reflexivity. Qed.
(** == (and so !=) is symmetric on all values - numbers of different kinds, lists, maps and function
    values included - when every map holds each key once, as a HashMap does ([nodup_maps]); without
    that hypothesis it fails ([v_eq_sym_needs_nodup]: an association list that repeats a key).  The
    map case is the counting argument: same size, distinct keys, every left entry found equal in
    the right - then every right entry is found equal in the left. *)
Theorem C09_eq_symmetric : forall a b, nodup_maps a -> nodup_maps b ->
  v_eq a b = v_eq b a /\ v_ne a b = v_ne b a.
Proof. intros a b Ha Hb. unfold v_ne. rewrite (v_eq_sym a b Ha Hb). split; reflexivity. Qed.

(** == is transitive on all values whose doubles are IEEE-754 doubles and whose maps hold each key
    once ([good]) - an int, a uint and a double that are pairwise == denote one number; lists, maps
    and function values inherit it - and reflexive on those that contain no NaN.  With the symmetry
    above, == is an equivalence relation on NaN-free [good] values (and 0u == 0 == -0.0 forces
    0u == -0.0). *)
Theorem C09_eq_transitive : forall a b c, good a -> good b -> good c ->
  v_eq a b = true -> v_eq b c = true -> v_eq a c = true.
Proof. intros a b c [_ Va] [_ Vb] [_ Vc]. now apply v_eq_trans. Qed.

Theorem C09_eq_reflexive : forall a, good a -> nan_free a -> v_eq a a = true.
Proof. intros a [Hd _] Hn. now apply v_eq_refl. Qed.

Example C09_ex_zero_chain :
  good (VUInt 0) /\ good (VInt 0) /\ good (VDbl (S754_zero true)) /\ nan_free (VDbl (S754_zero true)) /\
  v_eq (VUInt 0) (VInt 0) = true /\ v_eq (VInt 0) (VDbl (S754_zero true)) = true /\
  v_eq (VUInt 0) (VDbl (S754_zero true)) = true /\ v_eq (VDbl S754_nan) (VDbl S754_nan) = false.
Proof. repeat split; discriminate. Qed.

(** [nodup_maps] tells the keys 1 and 1u apart: a map may hold both, and two maps that differ only
    in that are unequal.  (That the hypothesis of [C09_eq_symmetric] is needed is
    [v_eq_sym_needs_nodup].) *)
Example C09_ex_sym_hyp : nodup_maps (VMap [(KInt 1, VList [VDbl S754_nan]); (KUint 1, VMap [])]) /\
  v_eq (VMap [(KInt 1, VInt 0)]) (VMap [(KUint 1, VInt 0)]) = false.
Proof.
  split; [|reflexivity]. split.
  - constructor; [|constructor; [intros []|constructor]]. intros [H|[]]. discriminate.
  - repeat constructor.
Qed.

Example C09_ex_2_63 : v_cmp (VInt 9223372036854775807) (VDbl (f64_of_Z 9223372036854775808)) = Some Lt.
Proof. reflexivity. Qed.
Example C09_ex_half : v_cmp (VUInt 1) (VDbl (f64_of_bits 4609434218613702656)) = Some Lt. (* 1.5 *)
Proof. reflexivity. Qed.
Example C09_ex_max : v_max [VList [VInt 3; VUInt 7; VInt (-2)]] = Ok (VUInt 7).
Proof. reflexivity. Qed.

Print Assumptions C09_ne_neg.
Print Assumptions C09_exact.
Print Assumptions C09_trichotomy.
Print Assumptions C09_le_iff.
Print Assumptions C09_antisym.
Print Assumptions C09_trans.
Print Assumptions C09_exact_doubles.
Print Assumptions C09_bits_valid.
Print Assumptions C09_max_numbers.
Print Assumptions C09_string_codepoint_order.
Print Assumptions C09_list_map_eq.
Print Assumptions C09_unrelated.
Print Assumptions C09_nan.
Print Assumptions C09_minmax.
Print Assumptions C09_max_intlike.
Print Assumptions C09_eq_symmetric.
Print Assumptions C09_eq_transitive.
Print Assumptions C09_eq_reflexive.
