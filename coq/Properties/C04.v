(** C04 - parsing preserves CEL precedence, associativity and grouping.
    Proved here: the round trip [parse (render tree) = tree] for every well-formed surface tree -
    identifiers, integer and double literals of either sign, true / false / null, string and
    bytes literal tokens, prefix runs of any length, * / %, + -, the seven relations, && / ||
    chains of any length, ?:, explicit parentheses, field selection, indexing, member and global
    calls - a macro call being the tree its expander builds around the receiver's and the
    arguments' trees (C04_macro_trees) -, list, map and message literals (dotted type names, with
    or without the leading dot), each with or without the optional trailing comma ([,] and {,}
    included), identifiers and global calls with a leading dot, selection of back-quoted fields -
    rendered with minimal parentheses.  At token level it holds with the fuel [compile] itself
    uses (the parse holds for all sufficient fuel, more fuel never changes an answer, and the
    parser's own fuel is never exhausted).  From source text it holds under [ids_ok], which asks
    that identifiers be identifiers of the language and assumes that the string, bytes, double and
    back-quoted tokens of the tree lex back ([lexable]): that is shown for the quoted forms (C12)
    and for back-quoted names (C04_escident_lexable), and by no lemma for the text of a double
    literal.  Also proved: the operand order of && / || chains; the cancellation of prefix runs;
    that macros expand around their receiver and arguments.  Outside the round-trip theorem:
    back-quoted field names inside message literals and the optional-field syntax the parser
    refuses; the correspondence run covers those (every tree with up to 2 (thorough: 3)
    operators, random deeper ones, fully and minimally parenthesised) and checks on every tree
    of the theorem's domain that the real lexer's tokens are the rendering [raw]. *)
From Coq Require Import String.
From Cel.Model Require Import Surface.
From Cel.Proofs Require Import ParserUnfold PrecedenceProofs ParserRoundtrip MacroTrees ParserFuel LexerRoundtrip.

(** Chains of && / || keep their operands in source order: for every number of operands the
    tree built for t0 op t1 op ... tn ([logic_tree], applied by the parser's chain loops to the
    operands in source order) consists of nodes of that operator whose leaves, read left to
    right, are exactly t0 ... tn. *)
Theorem C04_chain_order : forall fn terms, (2 <= length terms)%nat ->
  exists t, logic_tree fn terms = interp fn terms t /\ inorder t = seq 0 (length terms).
Proof. exact logic_tree_order. Qed.

(** Where no further operator of the chain follows, the chain loops answer [logic_tree] of the
    operands collected, in source order. *)
Theorem C04_chain_loops : forall f acc ts,
  (match ts with TOrOr :: _ => False | _ => True end ->
   p_or_loop (S f) acc ts = POk (logic_tree $"_||_" (rev' acc)) ts) /\
  (match ts with TAndAnd :: _ => False | _ => True end ->
   p_and_loop (S f) acc ts = POk (logic_tree $"_&&_" (rev' acc)) ts).
Proof.
  intros f acc ts. split; intros H; [rewrite u_or_loop|rewrite u_and_loop]; destruct ts as [|[] r];
    try reflexivity; destruct H.
Qed.

(** A run of n prefix operators applied to a member expression m yields m for even n and the
    single application for odd n - for every n (a single minus before a number token is the
    literal's sign and is excluded). *)
Theorem C04_prefix_parity : forall n f ts,
  (not_bang ts ->
   p_unary (S f) (repeat TBang (S n) ++ ts) =
   match p_member f ts with
   | POk m r => POk (if Nat.odd (S n) then ECall $"!_" None [m] else m) r
   | PFail => PFail
   | PFuel => PFuel
   end) /\
  (not_minus ts -> (n = O -> is_number_tok ts = false) ->
   p_unary (S f) (repeat TMinus (S n) ++ ts) =
   match p_member f ts with
   | POk m r => POk (if Nat.odd (S n) then ECall $"-_" None [m] else m) r
   | PFail => PFail
   | PFuel => PFuel
   end).
Proof. intros n f ts. split; [apply bang_run|apply minus_run]. Qed.

(** A macro call expands around, never into, its receiver and argument expressions. *)
Theorem C04_macro_around : forall r x p q,
  expand_call $"all" (Some r) [EIdent x; p] = Some (expand_all r x p) /\
  expand_call $"exists" (Some r) [EIdent x; p] = Some (expand_exists r x p) /\
  expand_call $"exists_one" (Some r) [EIdent x; p] = Some (expand_exists_one r x p) /\
  expand_call $"existsOne" (Some r) [EIdent x; p] = Some (expand_exists_one r x p) /\
  expand_call $"map" (Some r) [EIdent x; p] = Some (expand_map r x None p) /\
  expand_call $"map" (Some r) [EIdent x; q; p] = Some (expand_map r x (Some q) p) /\
  expand_call $"filter" (Some r) [EIdent x; p] = Some (expand_filter r x p).
Proof. repeat split. Qed.

(** Precedence and associativity on concrete texts (computed by the model's parser). *)
Example C04_ex_prec :
  compile $"a || b && c == d + e * -f.g" =
  CExpr (ECall $"_||_" None [EIdent $"a";
         ECall $"_&&_" None [EIdent $"b";
         ECall $"_==_" None [EIdent $"c";
         ECall $"_+_" None [EIdent $"d";
         ECall $"_*_" None [EIdent $"e";
         ECall $"-_" None [ESelect (EIdent $"f") $"g" false]]]]]]).
Proof. vm_compute. reflexivity. Qed.
Example C04_ex_assoc :
  compile $"a - b - c" = CExpr (ECall $"_-_" None [ECall $"_-_" None [EIdent $"a"; EIdent $"b"]; EIdent $"c"]) /\
  compile $"a ? b : c ? d : e" =
  CExpr (ECall $"_?_:_" None [EIdent $"a"; EIdent $"b"; ECall $"_?_:_" None [EIdent $"c"; EIdent $"d"; EIdent $"e"]]).
Proof. split; vm_compute; reflexivity. Qed.
Example C04_ex_even : compile $"!!a" = CExpr (EIdent $"a") /\ compile $"---a" = CExpr (ECall $"-_" None [EIdent $"a"]).
Proof. split; vm_compute; reflexivity. Qed.

(** Rendering then parsing gives the tree back: precedence, left associativity, balanced
    logical chains and grouping, for trees of any size. *)
Theorem C04_roundtrip : forall t, wf_st t -> parse_tokens (raw t) = CExpr (ast t).
Proof. exact parse_tokens_roundtrip. Qed.

(** From source text: writing the tokens of the rendering one after the other, each followed by
    a space, and compiling that text gives the tree - under [ids_ok]: identifiers are identifiers
    of the language (not empty, not a keyword), and every string, bytes, double and back-quoted
    token of the tree is assumed [lexable].  C12 provides that for the quoted literals and
    [C04_escident_lexable] for back-quoted names; no lemma does for the text of a double literal. *)
Theorem C04_source_roundtrip : forall t, wf_st t -> ids_ok t -> compile (text (raw t)) = CExpr (ast t).
Proof. exact compile_roundtrip. Qed.

(** ... and with any larger fuel: the result does not depend on how much is left over. *)
Theorem C04_roundtrip_any_fuel : forall t, wf_st t ->
  exists n, forall f, (n <= f)%nat -> p_expr f (raw t) = POk (ast t) [].
Proof. exact parse_roundtrip. Qed.

(** a + b * c - d == e && !f || g ? h : i : the tree the table prescribes, and its tokens *)
Example C04_ex_roundtrip :
  let t := SCond (SOr (SAnd (SRel TEq (SAdd TMinus (SAdd TPlus (SId $"a") (SMul TStar (SId $"b") (SId $"c"))) (SId $"d")) (SId $"e"))
                            [SNot 0 (SId $"f")]) [SId $"g"]) (SId $"h") (SId $"i") in
  wf_st t /\ length (raw t) = 18%nat /\ parse_tokens (raw t) = CExpr (ast t).
Proof. vm_compute. repeat split; discriminate. Qed.

(** x.f(a + b, [1, {k: !c}])[i].g * 2 : postfix forms bind tighter than every operator *)
Example C04_ex_postfix :
  let t := SMul TStar
             (SSel (SIdx (SMCall (SId $"x") $"f" [SAdd TPlus (SId $"a") (SId $"b");
                                                   SLst [SLit (LInt 1); SMap [(SId $"k", SNot 0 (SId $"c"))]]])
                         (SId $"i")) $"g")
             (SLit (LInt 2)) in
  wf_st t /\ ids_ok t /\ compile (text (raw t)) = CExpr (ast t) /\
  compile $"x.f(a + b, [1, {k: !c}])[i].g * 2" = CExpr (ast t).
Proof. vm_compute. repeat split; try discriminate; reflexivity. Qed.

(** Unambiguity: well-formed trees that render to the same tokens denote the same AST - in
    particular a tree and the same tree with redundant parentheses, and no two trees that differ
    in grouping can share a rendering. *)
Theorem C04_unambiguous : forall t1 t2, wf_st t1 -> wf_st t2 -> raw t1 = raw t2 -> ast t1 = ast t2.
Proof.
  intros t1 t2 W1 W2 E. pose proof (parse_tokens_roundtrip t1 W1) as H1. pose proof (parse_tokens_roundtrip t2 W2) as H2.
  rewrite E in H1. rewrite H1 in H2. now injection H2.
Qed.

(** Macro calls are trees of the theorems above: the tree of r.all(x, p) is the comprehension
    built around the trees of r and p, and so on for each macro; such a tree is well formed
    exactly when its parts are, and only a plain name is accepted as the iteration variable. *)
Theorem C04_macro_trees : forall a x p q f,
  ast (SMCall a $"all" [SId x; p]) = expand_all (ast a) x (ast p) /\
  ast (SMCall a $"exists" [SId x; p]) = expand_exists (ast a) x (ast p) /\
  ast (SMCall a $"exists_one" [SId x; p]) = expand_exists_one (ast a) x (ast p) /\
  ast (SMCall a $"existsOne" [SId x; p]) = expand_exists_one (ast a) x (ast p) /\
  ast (SMCall a $"filter" [SId x; p]) = expand_filter (ast a) x (ast p) /\
  ast (SMCall a $"map" [SId x; p]) = expand_map (ast a) x None (ast p) /\
  ast (SMCall a $"map" [SId x; p; q]) = expand_map (ast a) x (Some (ast p)) (ast q) /\
  ast (SCall $"has" [SSel a f]) = ESelect (ast a) f true.
Proof. repeat split; reflexivity. Qed.

Theorem C04_macro_wf : forall a m x p q f, macro2 m ->
  (wf_st (SMCall a m [SId x; p]) <-> wf_st a /\ wf_st p) /\
  (wf_st (SMCall a $"map" [SId x; p; q]) <-> wf_st a /\ wf_st p /\ wf_st q) /\
  (wf_st (SCall $"has" [SSel a f]) <-> wf_st a).
Proof. exact macro_wf. Qed.

Theorem C04_macro_var_needed : forall a m v p, macro2 m -> (forall x, ast v <> EIdent x) -> ~ wf_st (SMCall a m [v; p]).
Proof. exact macro_var_needed. Qed.

(** l.filter(x, x > 1).all(y, has(y.f)) || b : macros nest through receivers and bodies *)
Example C04_ex_macro :
  let t := SOr (SMCall (SMCall (SId $"l") $"filter" [SId $"x"; SRel TGt (SId $"x") (SLit (LInt 1))]) $"all"
                       [SId $"y"; SCall $"has" [SSel (SId $"y") $"f"]]) [SId $"b"] in
  wf_st t /\ ids_ok t /\ compile (text (raw t)) = CExpr (ast t) /\
  compile $"l.filter(x, x > 1).all(y, has(y.f)) || b" = CExpr (ast t) /\
  ast t = ECall $"_||_" None [expand_all (expand_filter (EIdent $"l") $"x" (ECall $"_>_" None [EIdent $"x"; ELit (VInt 1)])) $"y"
                                          (ESelect (EIdent $"y") $"f" true); EIdent $"b"].
Proof. vm_compute. repeat split; try discriminate; reflexivity. Qed.

(** A back-quoted identifier with a non-empty body of the characters the token rule allows is read
    back as one token, so selections of such fields are trees of the source-text theorem too. *)
Theorem C04_escident_lexable : forall body, body <> [] -> forallb is_esc_ident_char body = true ->
  lexable (TEscIdent (96%N :: body ++ [96%N])).
Proof. exact lexable_escident. Qed.

(** [.g(1), {,}, .pkg.T{f: .x,},].`a-b` : trailing commas, leading dots, a back-quoted field *)
Example C04_ex_trailing :
  let t := SSelEsc (SLstT [SDotCall $"g" [SLit (LInt 1)]; SMapT []; SMsgT true [$"pkg"; $"T"] [($"f", SDotId $"x")]]) $"`a-b`" in
  wf_st t /\ ids_ok t /\ compile (text (raw t)) = CExpr (ast t) /\
  compile $"[.g(1), {,}, .pkg.T{f: .x,},].`a-b`" = CExpr (ast t) /\
  ast t = ESelect (EList [ECall $".g" None [ELit (VInt 1)]; EMap []; EStruct $".pkg.T" [($"f", EIdent $"x")]]) $"`a-b`" false.
Proof.
  vm_compute. repeat split; try discriminate; try reflexivity; try (repeat constructor; fail).
  apply (lexable_escident $"a-b"); [discriminate|reflexivity].
Qed.

(** .pkg.T{f: a + b, g: [x.y]} * 2 : a message literal is a primary; its name keeps the leading dot *)
Example C04_ex_message :
  let t := SMul TStar (SMsg true [$"pkg"; $"T"] [($"f", SAdd TPlus (SId $"a") (SId $"b")); ($"g", SLst [SSel (SId $"x") $"y"])])
                      (SLit (LInt 2)) in
  wf_st t /\ ids_ok t /\ compile (text (raw t)) = CExpr (ast t) /\
  compile $".pkg.T{f: a + b, g: [x.y]} * 2" = CExpr (ast t).
Proof. vm_compute. repeat split; try discriminate; try reflexivity. repeat constructor. Qed.

Print Assumptions C04_chain_order.
Print Assumptions C04_chain_loops.
Print Assumptions C04_prefix_parity.
Print Assumptions C04_macro_around.
Print Assumptions C04_roundtrip.
Print Assumptions C04_roundtrip_any_fuel.
Print Assumptions C04_source_roundtrip.
Print Assumptions C04_macro_trees.
Print Assumptions C04_macro_wf.
Print Assumptions C04_macro_var_needed.
Print Assumptions C04_escident_lexable.
Print Assumptions C04_unambiguous.
