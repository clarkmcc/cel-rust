(** C01 - compiling any source text ends in a program or positioned errors (partial).
    What is proved here concerns the model's [compile] (Lexer/Literals/Parser/Macros) and the
    position arithmetic of [pos_for]; that [compile] accepts exactly what the real ANTLR parser
    accepts, with the same tree, is the correspondence run.  The parser's fuel suffices on
    every input ([C01_fuel_sufficient]), so [compile] has two outcomes only and a rejection
    is the grammar's.  What [compile] accepts is derivable from the start rule of CEL.g4 stated
    as a derivation relation over tokens (Model/Grammar.v; [C01_accept_sound]), and every
    derivable token list has balanced brackets of each kind and ends in a closing token
    ([C01_accepted_shape]): unbalanced or dangling texts are never accepted.  Not proved:
    completeness for the whole grammar (C04 proves it for the operator grammar). *)
From Coq Require Import String.
From Cel.Model Require Import Position.
From Cel.Model Require Import Grammar.
From Cel.Model Require Import Surface.
From Cel.Proofs Require Import ParserProofs LexerTotal ParserTotal ParserSound GrammarProps ParserFuel.

(** The fuel [compile] gives its parser (16 * (tokens + 2)) is enough for every token list
    and every source text: the out-of-fuel answer never occurs. *)
Theorem C01_fuel_sufficient : forall src ts,
  compile src <> COutOfFuel /\ parse_tokens ts <> COutOfFuel.
Proof. intros src ts. split; [apply compile_never_out_of_fuel|apply parse_never_out_of_fuel]. Qed.

(** A rejection is never an artefact of the model's fuel, in the lexer no more than in the
    parser: either the lexer, following its own steps ([reach]), arrives at a non-empty remainder
    at which no token, blank or comment starts, or the text lexes and the token list is not an
    expression followed by nothing. *)
Theorem C01_reject_genuine : forall src, compile src = CReject ->
  (exists suf, reach src suf /\ suf <> [] /\ lex_one suf = None) \/
  (exists ts, lex src = Some ts /\ parse_tokens ts = CReject).
Proof.
  intros src H. unfold compile in H. destruct (lex src) as [ts|] eqn:L.
  - right. exists ts. split; [reflexivity|exact H].
  - left. now apply lex_none_genuine.
Qed.

(** [compile] is total with exactly two outcomes: a program, or a rejection. *)
Theorem C01_total : forall src,
  (exists e, compile src = CExpr e) \/ compile src = CReject.
Proof.
  intros src. pose proof (compile_never_out_of_fuel src) as H.
  destruct (compile src); eauto. now elim H.
Qed.

(** Accepted texts are complete CEL expressions: the whole token list is derivable from
    [start : expr EOF] of the grammar. *)
Theorem C01_accept_sound : forall src e,
  compile src = CExpr e -> exists ts, lex src = Some ts /\ Gstart ts.
Proof. exact compile_sound. Qed.

(** ... and therefore never an unbalanced bracket, a dangling operator or nothing at all: in
    every accepted text each kind of bracket opens as often as it closes, the brackets are
    properly nested (every closer matches the most recent open bracket, [nested]), and the last
    token is a closing bracket, an identifier or a literal. *)
Theorem C01_accepted_shape : forall src e,
  compile src = CExpr e ->
  exists ts, lex src = Some ts /\ balanced ts /\ ends ts /\ ts <> [] /\ nested ts [] = true.
Proof.
  intros src e H. apply compile_sound in H as (ts & L & G). exists ts. split; [exact L|].
  destruct (derivable_shape ts G) as (B & E & N). repeat split; try assumption; try apply B.
  now apply derivable_nested.
Qed.

(** The relation is inhabited by everything C04's round trip covers: the minimal-parenthesis
    rendering of every well-formed surface tree is derivable (operators of all levels, prefix
    runs, conditionals, selections, indexing, calls, list and map literals, literals). *)
Theorem C01_trees_derivable : forall t, wf_st t -> Gstart (raw t).
Proof. intros t W. exact (parse_sound (raw t) (ast t) (parse_tokens_roundtrip t W)). Qed.

(** The position computed for a byte offset (SourceInfo::pos_for, used for macro errors)
    exists for every offset inside the source, and a position reported is on an existing line,
    at a column - counted in characters, as the columns of syntax errors are - between 1 and one
    past that line's character count (its newline included).  The last conjunct drops the "one
    past" for some byte index [k] of the line that is no continuation byte; the statement ties
    [k] neither to the offset nor to the column. *)
Theorem C01_pos_in_source : forall src start,
  ((start < length src)%nat -> pos_for src start <> None) /\
  forall l c, pos_for src start = Some (l, c) ->
    (1 <= l <= length (split_inclusive src []))%nat /\
    exists piece k, nth_error (split_inclusive src []) (l - 1) = Some piece /\ (k < length piece)%nat /\
                    (1 <= c <= nchars piece + 1)%nat /\
                    (is_cont (nth k piece 0%N) = false -> (c <= nchars piece)%nat).
Proof. exact pos_for_in_source. Qed.

(** Unknown characters: at a character no token rule can start with [lex_one] fails, and
    [compile] rejects a source that begins with one. *)
Theorem C01_unknown_char_rejected : forall c r,
  unknown_start c = true -> lex_one (c :: r) = None /\ compile (c :: r) = CReject.
Proof.
  intros c r H. pose proof (lex_one_unknown c r H) as E. split; [exact E|].
  unfold compile, lex. cbn [lex_fuel length]. now rewrite E.
Qed.

(** Unterminated literals: over a body without the quote the one-quote scanner [scan_short]
    finds no end, whatever its fuel (a statement about the scanner alone, not about [lex]). *)
Theorem C01_unterminated_literal_rejected : forall fuel q raw s n,
  ~ In q s -> scan_short fuel q raw s n = None.
Proof. exact scan_short_unterminated. Qed.

Example C01_ex_accept : exists e, compile $"1 + 2" = CExpr e.
Proof. eexists. vm_compute. reflexivity. Qed.
Example C01_ex_derivable : Gstart [TInt $"1"; TPlus; TInt $"2"].
Proof.
  destruct (C01_accept_sound $"1 + 2" _ ltac:(vm_compute; reflexivity)) as (ts & L & G).
  vm_compute in L. now injection L as <-.
Qed.
Example C01_ex_dangling : compile $"1 +" = CReject.
Proof. vm_compute. reflexivity. Qed.
Example C01_ex_unbalanced : compile $"(1 + 2" = CReject /\ compile $"f(1,)" = CReject.
Proof. split; vm_compute; reflexivity. Qed.
Example C01_ex_trailing : compile $"a b" = CReject.
Proof. vm_compute. reflexivity. Qed.
Example C01_ex_unknown : unknown_start 36 = true /\ compile $"a $ b" = CReject.
Proof. split; vm_compute; reflexivity. Qed.

Print Assumptions C01_fuel_sufficient.
Print Assumptions C01_total.
Print Assumptions C01_reject_genuine.
Print Assumptions C01_accept_sound.
Print Assumptions C01_accepted_shape.
Print Assumptions C01_trees_derivable.
Print Assumptions C01_pos_in_source.
Print Assumptions C01_unknown_char_rejected.
Print Assumptions C01_unterminated_literal_rejected.
