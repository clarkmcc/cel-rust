(** C18 - exporting a CEL value to JSON is total and faithful. *)
From Coq Require Import String.
From Cel.Model Require Import Json.
From Cel.Proofs Require Import SerdeProofs JsonProofs.
Open Scope Z_scope.

(** Export never panics: the outcome is a document or an error. *)
Theorem C18_no_crash : forall v, match json_of_value v with Crash _ => False | _ => True end.
Proof. exact (fun v => decides_no_crash (json_spec v)). Qed.

(** It succeeds on every value without a function value or an oversized duration ([exportable])
    and returns an error on every other value. *)
Theorem C18_total : forall v,
  if exportable v then exists j, json_of_value v = Ok j else exists c, json_of_value v = Err c.
Proof.
  intros v. destruct (exportable v) eqn:E; [exact (decides_true (json_spec v) E)|exact (decides_false (json_spec v) E)].
Qed.

(** The exported document corresponds structurally ([JExp]): lists -> arrays, maps -> objects
    keyed by the key's text, bytes -> base64, timestamps -> RFC 3339 text, durations -> their
    nanosecond count, non-finite doubles -> null. *)
Theorem C18_structure : forall v j, json_of_value v = Ok j -> JExp v j.
Proof. exact (fun v j E => proj1 (decides_ok (json_spec v) j E)). Qed.

(** With text-distinct keys the object is exactly the list of (text, document) pairs. *)
Theorem C18_distinct_keys : forall tjs, str_distinct (map fst tjs) = true -> jset_all tjs [] = tjs.
Proof. intros tjs H. exact (jset_all_distinct tjs [] (str_distinct_NoDup _ H)). Qed.

(** base64 loses nothing: a decoder ([unbase64]) inverts it on every byte string. *)
Theorem C18_base64_faithful : forall b, Forall (fun x => (x < 256)%N) b -> unbase64 (base64 b) = Some b.
Proof. exact base64_roundtrip. Qed.

(** Import after export: for JSON-native values with text-distinct keys the imported value
    equals the original. *)
Theorem C18_import_export : forall v, json_native v = true ->
  exists j v', json_of_value v = Ok j /\ to_value (sdata_of_json j) = Ok v' /\ v_eq v' v = true.
Proof. exact import_export. Qed.

Example C18_ex :
  json_of_value (VMap [(KInt 1, VBytes [104; 105]%N); (KStr $"d", VDur 1500)]) =
    Ok (JObj [($"1", JStr $"aGk="); ($"d", JInt 1500)]) /\
  json_of_value (VList [VDur 9223372036854775808]) = Err EOverflow /\
  json_of_value (VList [VFun $"f" None]) = Err EInvalid /\
  json_native (VMap [(KStr $"a", VList [VInt 1; VNull])]) = true.
Proof. vm_compute. repeat split. Qed.

Print Assumptions C18_no_crash.
Print Assumptions C18_total.
Print Assumptions C18_structure.
Print Assumptions C18_distinct_keys.
Print Assumptions C18_base64_faithful.
Print Assumptions C18_import_export.
