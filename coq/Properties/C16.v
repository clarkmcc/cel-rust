(** C16 - timestamps keep the instant and calendar fields they were given.  The text round
    trip is proved for the model's rendering / parser of RFC 3339 (validated against chrono by the
    correspondence run, with an independent calendar computation in the harness). *)
From Coq Require Import String.
From Cel.Model Require Import Builtins.
From Cel.Proofs Require Import TimestampProofs TimestampRoundtrip DayOfYear.
Open Scope Z_scope.

(** The calendar conversions invert each other for every day number and every valid
    proleptic-Gregorian date of every year (by arithmetic on the two formulas: the year-of-era
    formula finds the March-based year in which a day of the 400-year era lies, and every day of
    every such year is found that way). *)
Theorem C16_civil_roundtrip :
  (forall n, let '(y, m, d) := civil_from_days n in
             days_from_civil y m d = n /\ valid_date y m d = true) /\
  (forall y m d, valid_date y m d = true -> civil_from_days (days_from_civil y m d) = (y, m, d)).
Proof. split; [exact civil_roundtrip_days|exact civil_roundtrip_date]. Qed.

(** The calendar fields of a timestamp ([local_fields]) are those of the local time at its own
    offset: they form a valid date whose day number is the local day, the time-of-day fields are
    in range, and together they reassemble to the local instant. *)
Theorem C16_fields : forall ns off,
  let f := local_fields ns off in
  let local := ns + off * ns_per_s in
  days_from_civil (f_year f) (f_month f) (f_day f) = local / ns_per_s / 86400 /\
  valid_date (f_year f) (f_month f) (f_day f) = true /\
  0 <= f_hour f <= 23 /\ 0 <= f_min f <= 59 /\ 0 <= f_sec f <= 59 /\ 0 <= f_nanos f < ns_per_s /\
  ((f_days f * 86400 + f_hour f * 3600 + f_min f * 60 + f_sec f) * ns_per_s + f_nanos f = local).
Proof. exact fields_spec. Qed.

(** The accessors lie in their documented ranges (month from 0, date from 1, day of week 0..6,
    milliseconds 0..999) and day-of-month is date - 1.  How each accessor is read off the local
    fields - milliseconds as ns / 10^6, the day of week counted from Sunday = 0 - is the
    definition of [access] (Model/Timestamp.v); [C16_ex_epoch] checks the day of week on
    1970-01-01, a Thursday. *)
Theorem C16_accessors : forall ns off,
  0 <= access AMonth ns off <= 11 /\ 1 <= access ADate ns off <= 31 /\
  access ADayOfMonth ns off = access ADate ns off - 1 /\
  0 <= access ADayOfWeek ns off <= 6 /\ 0 <= access AHours ns off <= 23 /\
  0 <= access AMinutes ns off <= 59 /\ 0 <= access ASeconds ns off <= 59 /\
  0 <= access AMillis ns off <= 999.
Proof. exact accessor_origins. Qed.

(** Equality and ordering compare instants regardless of offset. *)
Theorem C16_order_by_instant : forall a o1 b o2,
  v_cmp (VTs a o1) (VTs b o2) = Some (Z.compare a b) /\ v_eq (VTs a o1) (VTs b o2) = (a =? b).
Proof. split; reflexivity. Qed.

(** t + d - d == t and (t + d) - t == d whenever t and t + d are representable; when t + d is
    not, the addition is an error. *)
Theorem C16_add_sub : forall t o d,
  (ts_in_range t = true -> ts_in_range (t + d) = true ->
   v_add (VTs t o) (VDur d) = Ok (VTs (t + d) o) /\
   v_sub (VTs (t + d) o) (VDur d) = Ok (VTs t o) /\
   v_sub (VTs (t + d) o) (VTs t o) = Ok (VDur d)) /\
  (ts_in_range (t + d) = false ->
   v_add (VTs t o) (VDur d) = Err EOverflow /\ v_add (VDur d) (VTs t o) = Err EOverflow).
Proof.
  intros t o d. cbn [v_add v_sub]. unfold chk_ts. split.
  - intros H1 H2. now rewrite H2, Z.add_simpl_r, Z.add_simpl_l, H1.
  - now intros ->.
Qed.

Example C16_ex_epoch : civil_from_days 0 = (1970, 1, 1) /\ access ADayOfWeek 0 0 = 4.
Proof. split; reflexivity. Qed.
Example C16_ex_leap : access ADayOfYear (days_from_civil 2024 12 31 * 86400 * ns_per_s) 0 = 365.
Proof. reflexivity. Qed.
Example C16_ex_offset : access AHours 0 19800 = 5 /\ access AMinutes 0 19800 = 30
                        /\ access ADate (-1) 0 = 31 /\ access AMonth (-1) 0 = 11.
Proof. repeat split. Qed.
Example C16_ex_text : rfc3339 0 0 = $"1970-01-01T00:00:00+00:00"
                      /\ parse_rfc3339 $"1970-01-01T01:00:00+01:00" = Some (Some (0, 3600)).
Proof. split; reflexivity. Qed.

(** timestamp(string(t)) == t, offset included: for every instant whose local year is 0000-9999
    and every whole-minute offset within a day (what RFC 3339 can write). *)
Theorem C16_text_roundtrip : forall ns off,
  0 <= f_year (local_fields ns off) <= 9999 -> off mod 60 = 0 -> -86400 < off < 86400 ->
  parse_rfc3339 (rfc3339 ns off) = Some (Some (ns, off)) /\
  (let! s := b_string (VTs ns off) in run_builtin FTimestamp [s]) = Ok (VTs ns off).
Proof.
  intros ns off Hy Hm Hr. pose proof (rfc3339_roundtrip ns off Hy Hm Hr) as H. split; [exact H|].
  cbn [b_string obind run_builtin]. now rewrite H.
Qed.

(** getDayOfYear is the ordinal of the local date as a calendar defines it - the days of the earlier
    months of the local year plus the day of the month, counted from 0 ([ordinal0], what chrono's
    Datelike::ordinal0 is) - and lies in 0..364, 0..365 in a leap year, for every timestamp: instants
    and offsets are unbounded integers here, so chrono's limit instants seen from any offset (F27
    of DESIGN.md) are included. *)
Theorem C16_day_of_year : forall ns off,
  let f := local_fields ns off in
  access ADayOfYear ns off = ordinal0 (f_year f) (f_month f) (f_day f) /\
  0 <= access ADayOfYear ns off <= last_ordinal (f_year f).
Proof. exact day_of_year_spec. Qed.

Example C16_ex_ordinals : ordinal0 2024 3 1 = 60 /\ ordinal0 2023 3 1 = 59 /\ ordinal0 2024 12 31 = 365 /\
  access ADayOfYear (-8334601228800000000000) (-3600) = 365.     (* MIN_UTC seen from -01:00 *)
Proof. repeat split. Qed.

Print Assumptions C16_civil_roundtrip.
Print Assumptions C16_day_of_year.
Print Assumptions C16_text_roundtrip.
Print Assumptions C16_fields.
Print Assumptions C16_accessors.
Print Assumptions C16_order_by_instant.
Print Assumptions C16_add_sub.
