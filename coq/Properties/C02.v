(** C02 - executing any program against any context returns a value or an error.
    [Crash] is how the model represents a panic of the real code (the [panic!("WAT?")] /
    [Expr::Unspecified] arms, and a function body called with values its extractors cannot have
    produced).  The theorems say no evaluation reaches it.  Panics inside library code that the
    model does not transcribe are only reachable through the correspondence run, which reports an
    implementation crash on any input as a failing input. *)
From Coq Require Import String.
From Cel.Model Require Import Eval.
From Cel.Proofs Require Import NoCrash.

(** For every context whose function table is well formed (built-ins with the signatures of
    Context::default(), host functions of any arity and extractor list) - whatever its variables
    hold: i64/u64 extremes, NaN, infinities, durations and timestamps at chrono's limits,
    function values - and every expression without an [Expr::Unspecified] node ([no_unspec]; the
    AST of every surface term of C03 is one, SpecProofs.lower_no_unspec), evaluation ends in a
    value or an error.  Termination is [eval] being a structural Fixpoint. *)
Theorem C02_eval_no_crash : forall e c, wf_ctx c -> no_unspec e -> forall s, fst (eval c e) <> Crash s.
Proof. exact eval_nocrash. Qed.

(** The same for the value operators applied directly to arbitrary values. *)
Theorem C02_binop_no_crash : forall a b,
  nocrash (v_add a b) /\ nocrash (v_sub a b) /\ nocrash (v_mul a b) /\ nocrash (v_div a b) /\
  nocrash (v_rem a b) /\ nocrash (v_neg a) /\
  nocrash (v_lt a b) /\ nocrash (v_le a b) /\ nocrash (v_gt a b) /\ nocrash (v_ge a b).
Proof.
  intros a b. pose proof (arith_tame a b) as (H1 & H2 & H3 & H4 & H5).
  pose proof (rel_tame a b) as (R1 & R2 & R3 & R4).
  repeat split; apply tame_nocrash; auto. apply neg_tame.
Qed.

(** A call of a function whose signature fits its body ([fdef_ok]) does not crash when its
    arguments do not: the body is only ever run on values of the shapes its extractors produce. *)
Theorem C02_function_bodies_total : forall name d this rs es log0, fdef_ok d ->
  Forall (fun r => nocrash (fst r)) rs -> nocrash (fst (call_fn name d this rs es log0)).
Proof.
  intros name d this rs es log0 Hd Hrs.
  apply nocrash_good, call_fn_good; [exact (fun _ _ => I)|now left|].
  revert Hrs. apply Forall_impl. intros r. apply nocrash_good.
Qed.

(** The hypotheses are satisfiable: the default context, extended by host functions and
    variables, is well formed. *)
Theorem C02_default_ctx_wf :
  wf_ctx default_ctx /\
  (forall c x v, wf_ctx c -> wf_ctx (define c x v)) /\
  (forall c f ps h, wf_ctx c -> wf_ctx (add_function c f {| params := ps; body := FHost h |})).
Proof. split; [exact default_ctx_wf|split; [exact wf_define|exact wf_add_host]]. Qed.

Example C02_ex_struct : eval default_ctx (EStruct $"T" []) = (Err EInvalid, []).
Proof. reflexivity. Qed.
Example C02_ex_dmax : v_add (VDur dur_max_ns) (VDur dur_max_ns) = Err EOverflow.
Proof. reflexivity. Qed.
Example C02_ex_neg_min : v_neg (VInt i64_min) = Err EOverflow.
Proof. reflexivity. Qed.

Print Assumptions C02_eval_no_crash.
Print Assumptions C02_binop_no_crash.
Print Assumptions C02_function_bodies_total.
Print Assumptions C02_default_ctx_wf.
