(** C06 - logical operators and the conditional evaluate only what they need. *)
From Coq Require Import String.
From Cel.Model Require Import Eval.
From Cel.Proofs Require Import LogicProofs.

(** [a && b] does not evaluate [b] when [a] is false: the result and the log of host calls
    are those of [a] alone, whatever [b] is (an erroring or logging [b] leaves no trace).
    All statements quantify over every context and every operand expression, hence hold at
    every nesting depth and inside macro bodies (which are evaluated by the same [eval]). *)
Theorem C06_and_skips : forall c a b va la,
  eval c a = (Ok va, la) -> to_bool va = false ->
  eval c (e_and a b) = (Ok (VBool false), la).
Proof.
  intros c a b va la Ha Hf. rewrite eval_and, Ha. cbn [rbind]. rewrite Hf. cbn. now rewrite app_nil_r.
Qed.

Theorem C06_or_skips : forall c a b va la,
  eval c a = (Ok va, la) -> to_bool va = true ->
  eval c (e_or a b) = (Ok va, la).
Proof.
  intros c a b va la Ha Ht. rewrite eval_or, Ha. cbn [rbind]. rewrite Ht. cbn. now rewrite app_nil_r.
Qed.

(** The conditional evaluates the condition and exactly one branch. *)
Theorem C06_cond_one : forall c cnd x y vc lc,
  eval c cnd = (Ok vc, lc) ->
  eval c (e_cond cnd x y) =
  let '(r, l) := eval c (if to_bool vc then x else y) in (r, lc ++ l).
Proof.
  intros c cnd x y vc lc Hc. rewrite eval_cond, Hc. cbn [rbind]. destruct (to_bool vc); reflexivity.
Qed.

(** When the left operand decides nothing, the right operand is evaluated once, after it. *)
Theorem C06_and_continues : forall c a b va la,
  eval c a = (Ok va, la) -> to_bool va = true ->
  eval c (e_and a b) =
  match eval c b with
  | (Ok vb, lb) => (Ok (VBool (to_bool vb)), la ++ lb)
  | (Err x, lb) => (Err x, la ++ lb)
  | (Crash s, lb) => (Crash s, la ++ lb)
  end.
Proof.
  intros c a b va la Ha Ht. rewrite eval_and, Ha. cbn [rbind]. rewrite Ht.
  destruct (eval c b) as [[vb|x|s] lb]; cbn; rewrite ?app_nil_r; reflexivity.
Qed.

Theorem C06_or_continues : forall c a b va la,
  eval c a = (Ok va, la) -> to_bool va = false ->
  eval c (e_or a b) = let '(r, lb) := eval c b in (r, la ++ lb).
Proof.
  intros c a b va la Ha Hf. rewrite eval_or, Ha. cbn [rbind]. rewrite Hf. reflexivity.
Qed.

(** An error in the first operand aborts with that error and its log. *)
Theorem C06_err_left : forall c a b x la,
  eval c a = (Err x, la) ->
  eval c (e_and a b) = (Err x, la) /\ eval c (e_or a b) = (Err x, la) /\
  (forall y, eval c (e_cond a b y) = (Err x, la)).
Proof.
  intros c a b x la Ha. rewrite eval_and, eval_or, Ha. repeat split.
  intros y. rewrite eval_cond, Ha. reflexivity.
Qed.

Theorem C06_no_event_from_skipped : forall c a b va la ev,
  eval c a = (Ok va, la) -> ~ In ev la ->
  (to_bool va = false -> ~ In ev (snd (eval c (e_and a b)))) /\
  (to_bool va = true -> ~ In ev (snd (eval c (e_or a b)))).
Proof.
  intros c a b va la ev Ha Hn. split; intros H.
  - now rewrite (C06_and_skips c a b va la Ha H).
  - now rewrite (C06_or_skips c a b va la Ha H).
Qed.

(** Non-vacuity: a skipped operand that would fail, and one that would call a host function. *)
Definition boom : expr := ECall $"_/_" None [ELit (VInt 1); ELit (VInt 0)].
Example C06_ex_and : eval default_ctx (e_and (ELit (VBool false)) boom) = (Ok (VBool false), []).
Proof. reflexivity. Qed.
Example C06_ex_or : eval default_ctx (e_or (ELit (VBool true)) boom) = (Ok (VBool true), []).
Proof. reflexivity. Qed.
Example C06_ex_cond : eval default_ctx (e_cond (ELit (VBool true)) (ELit (VInt 1)) boom) = (Ok (VInt 1), []).
Proof. reflexivity. Qed.
Example C06_ex_boom : eval default_ctx boom = (Err EDivZero, []).
Proof. reflexivity. Qed.
Definition logctx : ctx :=
  add_function default_ctx $"f" {| params := [XArg TyValue]; body := FHost (HArg 0) |}.
Definition callf : expr := ECall $"f" None [ELit (VBool true)].
Example C06_ex_log : eval logctx callf = (Ok (VBool true), [Called $"f" [VBool true]]).
Proof. reflexivity. Qed.
Example C06_ex_log_skipped : eval logctx (e_or (ELit (VBool true)) callf) = (Ok (VBool true), []).
Proof. reflexivity. Qed.

Print Assumptions C06_and_skips.
Print Assumptions C06_or_skips.
Print Assumptions C06_cond_one.
Print Assumptions C06_and_continues.
Print Assumptions C06_or_continues.
Print Assumptions C06_err_left.
Print Assumptions C06_no_event_from_skipped.
