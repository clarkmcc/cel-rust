(** C20 - function calls bind receiver and arguments predictably. *)
From Coq Require Import String.
From Cel.Model Require Import Eval.
From Cel.Proofs Require Import CallProofs.

(** For every function whose first parameter is the receiver ([This<T>]) and whose other
    parameters are positional - every receiver-style built-in - and every receiver expression x
    that evaluates to a value without calling a host function (the hypothesis
    [eval c x = (Ok vx, [])]; CallProofs.receiver_style_equiv does without it): x.f(args) and
    f(x, args) evaluate identically (value, error, log), for all argument expressions. *)
Theorem C20_receiver_equiv : forall c f d t rest x vx args,
  plain_name f -> get_function c f = Some d -> params d = XThis t :: rest ->
  forallb positional rest = true -> eval c x = (Ok vx, []) ->
  eval c (ECall f (Some x) args) = eval c (ECall f None (x :: args)).
Proof.
  intros c f d t rest x vx args Hf Hd Hp Hrest _. exact (receiver_style_equiv c f d t rest x args Hf Hd Hp Hrest).
Qed.

(** The receiver-style built-ins of the default context have that shape. *)
Theorem C20_builtins_receiver_style :
  forallb (fun nd => match params (snd nd) with
                     | XThis _ :: rest => forallb positional rest
                     | _ => true
                     end) default_funs = true.
Proof. reflexivity. Qed.

(** A host function with positional parameters ts, called with argument values vs, is invoked
    exactly when [bind_positional ts vs] succeeds, and then with the values it returns; otherwise
    the outcome is its error and no invocation event occurs.  When it succeeds
    ([C20_bound_values]) there are at least as many arguments as parameters, each of the first
    |ts| arguments has its parameter's type, and the values are exactly those, in order (surplus
    arguments are ignored).  The converse is not stated; [C20_ex_missing] shows the two failures. *)
Theorem C20_args_in_order : forall name ts h vs es log0,
  call_fn name {| params := map XArg ts; body := FHost h |} None (map okres vs) es log0 =
  match bind_positional ts vs with
  | Ok xs => (run_host h xs, log0 ++ [Called name xs])
  | Err c => (Err c, log0)
  | Crash s => (Crash s, log0)
  end.
Proof.
  intros name ts h vs es log0. unfold call_fn. cbn [params body].
  rewrite (extract_positional ts None vs [] es [] log0 : extract _ _ (map okres vs) _ 0 _ _ = _).
  now destruct (bind_positional ts vs).
Qed.

Theorem C20_bound_values : forall ts vs xs, bind_positional ts vs = Ok xs ->
  xs = firstn (length ts) vs /\ (length ts <= length vs)%nat /\
  Forall2 (fun t v => has_vty t v = true) ts xs.
Proof. exact bind_positional_spec. Qed.

Theorem C20_no_crash_on_bad_call : forall ts vs s, bind_positional ts vs <> Crash s.
Proof.
  induction ts as [|t ts IH]; intros vs s; cbn [bind_positional]; [discriminate|].
  destruct vs as [|v vs]; [discriminate|]. destruct (has_vty t v); [|discriminate].
  specialize (IH vs). destruct (bind_positional ts vs); try discriminate. intros H. exact (IH _ H).
Qed.

(** A host function registered under a built-in's name replaces it. *)
Theorem C20_override : forall c f d, get_function (add_function c f d) f = Some d.
Proof. exact override. Qed.

Example C20_ex_size :
  eval default_ctx (ECall $"size" (Some (ELit (VStr $"ab"))) []) =
  eval default_ctx (ECall $"size" None [ELit (VStr $"ab")]).
Proof. reflexivity. Qed.
Example C20_ex_plain : plain_name $"size".
Proof. repeat split. Qed.
Example C20_ex_missing :
  bind_positional [TyInt; TyStr] [VInt 1] = Err EArgCount /\
  bind_positional [TyInt; TyStr] [VInt 1; VInt 2] = Err EInvalid /\
  bind_positional [TyInt; TyStr] [VInt 1; VStr []; VNull] = Ok [VInt 1; VStr []].
Proof. repeat split. Qed.

Print Assumptions C20_receiver_equiv.
Print Assumptions C20_builtins_receiver_style.
Print Assumptions C20_args_in_order.
Print Assumptions C20_bound_values.
Print Assumptions C20_no_crash_on_bad_call.
Print Assumptions C20_override.
