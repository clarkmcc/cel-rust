(** C10 - the comprehension macros compute their defining folds.
    [expand_*] (Model/Macros.v) are the expressions the real parser produces for the macro
    calls (tied to the parser by the correspondence run); [eval] is the evaluator.  Each theorem
    says: evaluating the expansion = evaluating the range once, then the readable fold [*_spec]
    over its elements (for a map: its keys, in iteration order), where the body is evaluated in
    the enclosing context extended with the iteration variable (innermost) and the hidden
    accumulator.  The folds visit elements left to right, concatenate the host-call logs of
    exactly the visited elements, abort at the first error reached and stop at the deciding
    element.  The only hypothesis is that the iteration variable is not the hidden accumulator
    name "@result" (which the lexer cannot produce as an identifier). *)
From Coq Require Import String.
From Cel.Model Require Import Eval Macros.
From Cel.Proofs Require Import EvalBase MacroProofs.
From Coq Require Import Lia.

Theorem C10_all : forall c r x p, str_eqb x accu = false ->
  eval c (expand_all r x p) =
  rbind (eval c r) (fun vr =>
    match range_items vr with
    | None => ret (Err EInvalid)
    | Some items => all_spec (fun it => eval (bind c (VBool true) x it) p) items
    end).
Proof. exact all_correct. Qed.

Theorem C10_exists : forall c r x p, str_eqb x accu = false ->
  eval c (expand_exists r x p) =
  rbind (eval c r) (fun vr =>
    match range_items vr with
    | None => ret (Err EInvalid)
    | Some items => exists_spec (fun acc it => eval (bind c acc x it) p) items (VBool false)
    end).
Proof. exact exists_correct. Qed.

(** exists_one / existsOne (both spellings expand identically: [find_expander]): true iff
    exactly one element satisfies the body; every element is visited.  (The [else] branch is the
    unreachable case of a list longer than i64::MAX.) *)
Theorem C10_exists_one : forall c r x p, str_eqb x accu = false ->
  eval c (expand_exists_one r x p) =
  rbind (eval c r) (fun vr =>
    match range_items vr with
    | None => ret (Err EInvalid)
    | Some items =>
        if (Z.of_nat (length items) <=? i64_max)%Z
        then exists_one_spec (fun acc it => eval (bind c acc x it) p) items
        else gfold (fun _ => true) (fun acc it => eval (bind c acc x it) (one_step p)) one_res
                   items (VInt 0) []
    end).
Proof.
  intros c r x p Hx. rewrite exists_one_gfold. apply range_fold_ext. intros items.
  destruct (Z.of_nat (length items) <=? i64_max)%Z eqn:E; [|reflexivity].
  apply Z.leb_le in E. unfold exists_one_spec.
  rewrite one_gfold; [reflexivity|assumption|unfold i64_min; lia|lia].
Qed.

(** map with two and with three arguments (optional pre-filter). *)
Theorem C10_map : forall c r x flt f, str_eqb x accu = false ->
  eval c (expand_map r x flt f) =
  rbind (eval c r) (fun vr =>
    match range_items vr with
    | None => ret (Err EInvalid)
    | Some items =>
        map_spec (option_map (fun p a it => eval (bind c a x it) p) flt)
                 (fun a it => eval (bind c a x it) f) items []
    end).
Proof. exact map_correct. Qed.

Theorem C10_filter : forall c r x p, str_eqb x accu = false ->
  eval c (expand_filter r x p) =
  rbind (eval c r) (fun vr =>
    match range_items vr with
    | None => ret (Err EInvalid)
    | Some items =>
        map_spec (Some (fun a it => eval (bind c a x it) p)) (fun a it => (Ok it, [])) items []
    end).
Proof. exact filter_correct. Qed.

(** For pure bodies - boolean predicates, and for map a transform - the folds are the textbook
    functions [forallb], [existsb], [filter] and [map]. *)
Theorem C10_pure_bodies : forall (f : value -> bool) (g : value -> value) items,
  (forall body, (forall it, In it items -> body it = (Ok (VBool (f it)), [])) ->
     all_spec body items = (Ok (VBool (forallb f items)), [])) /\
  (forall body, (forall acc it, In it items -> body acc it = (Ok (VBool (f it)), [])) ->
     exists_spec body items (VBool false) = (Ok (VBool (existsb f items)), []) /\
     exists_one_spec body items = (Ok (VBool (Z.of_nat (length (filter f items)) =? 1)%Z), []) /\
     map_spec (Some body) (fun a it => (Ok it, [])) items [] = (Ok (VList (filter f items)), [])) /\
  (forall body, (forall a it, In it items -> body a it = (Ok (g it), [])) ->
     map_spec None body items [] = (Ok (VList (map g items)), [])).
Proof.
  intros f g items. split; [|split].
  - intros body H. now apply all_spec_pure.
  - intros body H. split; [now apply exists_spec_pure|split].
    + unfold exists_one_spec. rewrite (count_spec_pure f body items 0 H). reflexivity.
    + rewrite (map_spec_pure f (fun v => v) (Some body) _ items [] H); [now rewrite map_id|reflexivity].
  - intros body H.
    pose proof (map_spec_pure (fun _ => true) g None body items [] (fun _ _ _ => eq_refl) H) as E.
    now rewrite BaseFacts.filter_all in E.
Qed.

(** all: elements after the deciding one are not visited. *)
Theorem C10_all_stops : forall body pre d post l,
  (forall it, In it pre -> exists v lg, body it = (Ok v, lg) /\ to_bool v = true) ->
  body d = (Ok (VBool false), l) ->
  all_spec body (pre ++ d :: post) = all_spec body (pre ++ [d]).
Proof. exact all_stops. Qed.

(** Non-vacuity. *)
Definition gt1 : expr := ECall $"_>_" None [EIdent $"x"; ELit (VInt 1)].
Definition l123 : expr := EList [ELit (VInt 1); ELit (VInt 2); ELit (VInt 3)].
Example C10_ex_all : eval default_ctx (expand_all l123 $"x" gt1) = (Ok (VBool false), []).
Proof. reflexivity. Qed.
Example C10_ex_exists : eval default_ctx (expand_exists l123 $"x" gt1) = (Ok (VBool true), []).
Proof. reflexivity. Qed.
Example C10_ex_one : eval default_ctx (expand_exists_one l123 $"x" gt1) = (Ok (VBool false), []).
Proof. reflexivity. Qed.
Example C10_ex_filter : eval default_ctx (expand_filter l123 $"x" gt1) = (Ok (VList [VInt 2; VInt 3]), []).
Proof. reflexivity. Qed.
Example C10_ex_hyp : str_eqb $"x" accu = false.
Proof. reflexivity. Qed.

Print Assumptions C10_all.
Print Assumptions C10_exists.
Print Assumptions C10_exists_one.
Print Assumptions C10_map.
Print Assumptions C10_filter.
Print Assumptions C10_pure_bodies.
Print Assumptions C10_all_stops.
