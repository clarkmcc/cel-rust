(** C13 - numeric literals and conversions preserve the number or fail.
    Proved about the model (Literals / Builtins / FloatText).  Double literals and the text of
    doubles are the correctly rounded conversions [f64_of_decimal] (SpecFloat's rounding, trusted)
    and the shortest-digit search [f64_to_text]; their agreement with Rust's parser and Display
    is the correspondence run, and the double round trip through text is not a theorem
    ([C13_string_roundtrip_double_partial] is stated for the cases evaluated). *)
From Coq Require Import String.
From Cel.Model Require Import Builtins.
From Cel.Proofs Require Import BaseFacts LiteralProofs NumericProofs.
Open Scope Z_scope.

(** Every decimal int literal within range evaluates to exactly the number it denotes
    (the most negative int included: the sign is part of the literal); a literal evaluates to
    a value only if that value is in range. *)
Theorem C13_int_literal : forall z, in_i64 z = true ->
  int_literal (z <? 0) (nat_digits (Z.abs z)) = Some z.
Proof. exact int_literal_dec. Qed.

Theorem C13_int_literal_range : forall neg t z, int_literal neg t = Some z -> in_i64 z = true.
Proof. exact int_literal_range. Qed.

(** Hexadecimal int literals, any number of digits in either case: the number, negated after a
    minus sign, or nothing when that is out of range. *)
Theorem C13_int_literal_hex : forall upper n v neg, (v < 16 ^ N.of_nat n)%N ->
  int_literal neg (48%N :: ch "x" :: hexd upper n v) =
  let z := if neg then - Z.of_N v else Z.of_N v in if in_i64 z then Some z else None.
Proof. exact int_literal_hex. Qed.

(** A decimal uint literal within range, whatever its suffix character, denotes its number. *)
Theorem C13_uint_literal : forall u sfx, in_u64 u = true ->
  uint_literal (nat_digits u ++ [sfx]) = Some u.
Proof. exact uint_literal_dec. Qed.

(** int(double) and uint(double): truncation toward zero, or an error when the argument is
    NaN, infinite or outside the target range. *)
Theorem C13_int_of_double : forall f,
  b_int (VDbl f) = match trunc_Z f with
                   | Some z => if in_i64 z then Ok (VInt z) else Err EInvalid
                   | None => Err EInvalid
                   end /\
  (is_finite f = false -> b_int (VDbl f) = Err EInvalid /\ b_uint (VDbl f) = Err EInvalid) /\
  (forall u, b_uint (VDbl f) = Ok (VUInt u) -> trunc_Z f = Some u /\ in_u64 u = true /\ f_nonneg f = true).
Proof.
  intros f. split; [reflexivity|split; [|apply uint_of_double]].
  destruct f; try discriminate; intros _; split; reflexivity.
Qed.

(** [trunc_Z] is truncation toward zero of the exact value m * 2^e. *)
Theorem C13_trunc_toward_zero : forall f z, trunc_Z f = Some z ->
  match f with
  | S754_zero _ => z = 0
  | S754_finite s m e =>
      let a := Z.abs z in
      (if s then z <= 0 else 0 <= z) /\
      match e with
      | Z0 => a = Zpos m
      | Zpos p => a = Zpos m * 2 ^ Zpos p
      | Zneg p => a * 2 ^ Zpos p <= Zpos m < (a + 1) * 2 ^ Zpos p
      end
  | _ => False
  end.
Proof. exact trunc_Z_spec. Qed.

(** int(uint) and uint(int): the same number, or an error when it is out of the target range;
    double(int) and double(uint): [f64_of_Z] of the number. *)
Theorem C13_int_uint : forall z,
  b_int (VUInt z) = (if z <=? i64_max then Ok (VInt z) else Err EInvalid) /\
  b_uint (VInt z) = (if 0 <=? z then Ok (VUInt z) else Err EInvalid) /\
  b_double (VInt z) = Ok (VDbl (f64_of_Z z)) /\ b_double (VUInt z) = Ok (VDbl (f64_of_Z z)).
Proof. repeat split. Qed.

(** string() followed by int() / uint() returns the original int / uint; bytes() followed by
    string() returns the original string of scalar values. *)
Theorem C13_string_roundtrip_int : forall z, in_i64 z = true ->
  (let! s := b_string (VInt z) in b_int s) = Ok (VInt z).
Proof. intros z Hz. cbn. rewrite parse_int_text_of by now left. now rewrite Hz. Qed.

Theorem C13_string_roundtrip_uint : forall u, in_u64 u = true ->
  (let! s := b_string (VUInt u) in b_uint s) = Ok (VUInt u).
Proof.
  intros u Hu. cbn. rewrite parse_int_text_of by (right; now apply in_u64_nonneg). now rewrite Hu.
Qed.

Theorem C13_string_roundtrip_bytes : forall s, forallb is_scalar s = true ->
  (let! b := run_builtin FBytes [VStr s] in b_string b) = Ok (VStr s).
Proof. intros s H. cbn [run_builtin obind b_string]. now rewrite utf8_roundtrip. Qed.

(** double -> text -> double on evaluated cases (a test of the model, not the unbounded claim). *)
Definition dbl_rt (bits : Z) : bool :=
  let f := f64_of_bits bits in
  match parse_f64_text (f64_to_text f) with
  | Some g => bits_of_f64 g =? bits_of_f64 f
  | None => false
  end.
Theorem C13_string_roundtrip_double_partial :
  forallb dbl_rt [4607182418800017408; 4591870180066957722; 1; 9218868437227405311; 4890909195324358656;
                  4503599627370496; 13830554455654793216; 4621819117588971520; 4841369599423283200;
                  0; 9223372036854775808; 9218868437227405312; 4607182418800017409] = true.
Proof. vm_compute. reflexivity. Qed.

Example C13_ex_min : int_literal true $"9223372036854775808" = Some i64_min.
Proof. reflexivity. Qed.
Example C13_ex_out : int_literal false $"9223372036854775808" = None /\ uint_literal $"18446744073709551616u" = None.
Proof. split; reflexivity. Qed.
Example C13_ex_conv : b_int (VDbl (f64_of_Z 9223372036854775808)) = Err EInvalid
                      /\ b_int (VDbl S754_nan) = Err EInvalid /\ b_uint (VDbl (S754_infinity false)) = Err EInvalid.
Proof. repeat split. Qed.

Print Assumptions C13_int_literal.
Print Assumptions C13_int_literal_range.
Print Assumptions C13_int_literal_hex.
Print Assumptions C13_uint_literal.
Print Assumptions C13_int_of_double.
Print Assumptions C13_trunc_toward_zero.
Print Assumptions C13_int_uint.
Print Assumptions C13_string_roundtrip_int.
Print Assumptions C13_string_roundtrip_uint.
Print Assumptions C13_string_roundtrip_bytes.
Print Assumptions C13_string_roundtrip_double_partial.
