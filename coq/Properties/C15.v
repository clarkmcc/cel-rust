(** C15 - durations parse, print, add and compare exactly (partial in one clause: that the
    rendering is *Go's* canonical one is evaluated by the correspondence run against an
    independent implementation of Go's algorithm; everything else, the print/parse round trip
    included, is proved for every duration). *)
From Coq Require Import String.
From Cel.Model Require Import Builtins.
From Cel.Proofs Require Import DurationProofs DurationRoundtrip.
From Coq Require Import Lia.
Open Scope Z_scope.

(** Addition, subtraction and comparison act on the exact nanosecond counts; a result outside
    signed 64-bit nanoseconds is an error, never a crash. *)
Theorem C15_arith_exact : forall a b,
  v_add (VDur a) (VDur b) = (if in_i64 (a + b) then Ok (VDur (a + b)) else Err EOverflow) /\
  v_sub (VDur a) (VDur b) = (if in_i64 (a - b) then Ok (VDur (a - b)) else Err EOverflow) /\
  v_cmp (VDur a) (VDur b) = Some (Z.compare a b) /\
  v_eq (VDur a) (VDur b) = (a =? b).
Proof. repeat split. Qed.

(** duration() accepts a string only if the whole of it is an optionally signed "0" or a
    sequence of decimal-number-plus-unit terms: no trailing text, no missing unit, no inner
    sign, no exponent / inf / nan, no spaces. *)
Theorem C15_parse_language : forall s d, parse_duration s = Some d ->
  exists sign body, s = sign ++ body /\ (sign = [] \/ sign = [45%N] \/ sign = [43%N]) /\
    (body = $"0" \/ exists terms, terms <> [] /\ body = concat terms /\ Forall is_term terms).
Proof. exact parse_language. Qed.

Theorem C15_rejected_spellings :
  map parse_duration [$"1h30mjunk"; $"1e3s"; $"infs"; $"nans"; $"--1s"; $"1h-30m"; $"1s "; $" 1s"; $"1";
                      $""; $"-"; $"1.5"; $"s"; $"9223372036854775808ns"] =
  repeat None 14.
Proof. reflexivity. Qed.

(** The rendering of a negative duration is '-' followed by the rendering of its magnitude (stated
    where the magnitude is a duration too: not for the minimum). *)
Theorem C15_format_sign : forall d, 0 < d -> in_i64 d = true ->
  format_duration (- d) = 45%N :: format_duration d.
Proof.
  intros d Hd Hi. assert (Hn : in_i64 (- d) = true) by (unfold in_i64, i64_min, i64_max in *; lia).
  rewrite (format_body (- d) Hn), (format_body d Hi), Z.abs_opp by lia.
  replace (- d <? 0) with true by lia. replace (d <? 0) with false by lia. reflexivity.
Qed.

(** duration(string(d)) == d for every duration representable in signed 64-bit nanoseconds. *)
Theorem C15_roundtrip : forall d, in_i64 d = true ->
  parse_duration (format_duration_str d) = Some d /\
  (let! s := b_string (VDur d) in run_builtin FDuration [s]) = Ok (VDur d).
Proof.
  intros d Hd. pose proof (duration_roundtrip d Hd) as H. split; [exact H|].
  cbn [b_string obind run_builtin]. now rewrite H.
Qed.

Example C15_ex_format :
  format_duration_str 5400000000000 = $"1h30m0s" /\ format_duration_str 1500000 = $"1.5ms" /\
  format_duration_str (-2000000000) = $"-2s".
Proof. repeat split. Qed.

Print Assumptions C15_arith_exact.
Print Assumptions C15_parse_language.
Print Assumptions C15_rejected_spellings.
Print Assumptions C15_format_sign.
Print Assumptions C15_roundtrip.
