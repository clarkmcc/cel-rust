(** C03 - evaluation of the core language agrees with the reference semantics.

    [Spec.sem] is the reference semantics (a direct structural evaluator over the surface
    syntax [texpr]); [Spec.lower] is the AST the parser produces for a surface term (checked on
    every case of the correspondence run: the model compiles the source text itself and compares);
    [Spec.type_of] is the typing discipline: booleans where the language branches on them
    (operands of && || ! ?:, macro predicates), strings as receivers of startsWith / endsWith,
    typed iteration variables, and [TyAny] for what may be null (an index, a field selection). *)
From Coq Require Import String.
From Cel.Model Require Import Spec.
From Cel.Proofs Require Import SpecProofs.

(** For every well-typed term and every context that holds the standard functions and whose
    bindings, read as an environment, fit the typing: executing the parser's AST yields exactly the
    value, or the error class, the reference semantics prescribe (and calls no host function). *)
Theorem C03_refines : forall G t τ c,
  type_of G t = Some τ -> env_ok G (env_of c) -> funs c = default_funs ->
  eval c (lower t) = (sem (env_of c) t, []).
Proof.
  intros G t τ c Ht He Hf. exact (eval_refines t G τ c (env_of c) Ht (conj He (conj (rel_env_of c) Hf))).
Qed.

(** The reference semantics preserve types: a value it returns has the term's type (so the
    typing hypotheses of the rules above are met at every nested position). *)
Theorem C03_type_preservation : forall t G τ ρ v,
  type_of G t = Some τ -> env_ok G ρ -> sem ρ t = Ok v -> vtyped v τ.
Proof. intros t G τ ρ v Ht Hρ. exact (sem_preserves t G τ ρ Ht Hρ v). Qed.

(** It never "crashes" on a well-typed term: the outcome is a value or an error. *)
Theorem C03_sem_no_crash : forall G t τ c,
  type_of G t = Some τ -> env_ok G (env_of c) -> funs c = default_funs ->
  forall s, sem (env_of c) t <> Crash s.
Proof. intros G t τ c Ht He _. exact (sem_nocrash G t τ (env_of c) Ht He). Qed.

(** Concrete programs, one per construct family, with their types and values.  For the environment
    the example checks the boolean [env_okb] (what the driver runs on a harness-supplied
    environment), which no lemma relates to the hypothesis [env_ok]. *)
Definition ex_env : ctx :=
  {| funs := default_funs;
     scopes := [[($"l", VList [VInt 1; VInt 2; VInt 3]); ($"m", VMap [(KStr $"a", VInt 1)]); ($"b", VBool true)]] |}.
Definition ex_tenv : tenv := [($"l", TyL TyI); ($"m", TyM TyS TyI); ($"b", TyB)].

Example C03_ex_typed :
  env_okb ex_tenv (env_of ex_env) = true /\
  (* l.all(x, x > 0) && (b ? size(l) == 3 : false) *)
  (let t := TAnd (TAll $"x" (TVar $"l") (TBin BGt (TVar $"x") (TLit (VInt 0))))
                 (TCond (TVar $"b") (TBin BEq (TCall SSize false [TVar $"l"]) (TLit (VInt 3))) (TLit (VBool false))) in
   type_of ex_tenv t = Some TyB /\ sem (env_of ex_env) t = Ok (VBool true)) /\
  (* l.map(x, x * 2)[5] is null; has(m.a); 1 / 0 is a division error; l.exists_one(x, x == 2) *)
  sem (env_of ex_env) (TBin BIndex (TMapM $"x" (TVar $"l") None (TBin BMul (TVar $"x") (TLit (VInt 2)))) (TLit (VInt 5))) = Ok VNull /\
  sem (env_of ex_env) (THas (TVar $"m") $"a") = Ok (VBool true) /\
  sem (env_of ex_env) (TBin BDiv (TLit (VInt 1)) (TLit (VInt 0))) = Err EDivZero /\
  sem (env_of ex_env) (TExistsOne $"x" (TVar $"l") (TBin BEq (TVar $"x") (TLit (VInt 2)))) = Ok (VBool true).
Proof. vm_compute. repeat split; reflexivity. Qed.

Print Assumptions C03_refines.
Print Assumptions C03_type_preservation.
Print Assumptions C03_sem_no_crash.
