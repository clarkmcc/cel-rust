(** C17 - host data converts to CEL values without loss of structure. *)
From Coq Require Import String.
From Cel.Model Require Import Json.
From Cel.Proofs Require Import SerdeProofs JsonProofs.
Open Scope Z_scope.

(** Conversion never panics: for every value of the serde data model the outcome is a value
    or an error. *)
Theorem C17_no_crash : forall d, match to_value d with Crash _ => False | _ => True end.
Proof. exact (fun d => decides_no_crash (to_value_spec d)). Qed.

(** When it succeeds the result is the value of the same shape ([Conv]: signed integers -> int,
    unsigned -> uint, sequences/tuples -> lists, structs/maps -> maps keyed by field name / key,
    data-carrying variants -> single-entry maps, the wrappers -> duration / timestamp). *)
Theorem C17_shape : forall d v, to_value d = Ok v -> Conv d v.
Proof. exact (fun d v E => proj1 (decides_ok (to_value_spec d) v E)). Qed.

(** The map a struct / map conversion builds has distinct keys, exactly the converted keys, and
    the last binding of a key wins (HashMap::insert). *)
Theorem C17_map_semantics : forall kvs : list (key * value),
  NoDup (map fst (set_all kvs [])) /\
  (forall k, assoc_get k (set_all kvs []) = assoc_get k (rev kvs)) /\
  (forall k, In k (map fst (set_all kvs [])) <-> In k (map fst kvs)).
Proof. exact (@set_all_semantics value). Qed.

(** Key kinds: bool, integers, char, string, unit variants (through Some / newtypes); every other
    kind is refused, and a map converts only if all its keys are of a supported kind. *)
Theorem C17_key_kinds : forall d,
  match d with
  | SBool b => key_ser d = Ok (KBool b)
  | SInt z => key_ser d = Ok (KInt z)
  | SUint z => key_ser d = Ok (KUint z)
  | SChar c => key_ser d = Ok (KStr [c])
  | SStr s => key_ser d = Ok (KStr s)
  | SUnitVariant n => key_ser d = Ok (KStr n)
  | SSome d' | SNewtypeStruct d' => key_ser d = key_ser d'
  | STimestamp _ _ => key_ser d = Err EOracle
  | _ => key_ser d = Err EInvalid
  end.
Proof. destruct d; reflexivity. Qed.

Theorem C17_map_keys_supported : forall es v, to_value (SMap es) = Ok v ->
  Forall (fun kx => key_okb (fst kx) = true) es.
Proof.
  intros es v E. destruct (decides_ok (to_value_spec (SMap es)) v E) as [_ Hs].
  cbn [supported] in Hs. rewrite forallb_forall in Hs. apply Forall_forall. intros [k x] Hin.
  apply Hs in Hin. now apply andb_prop in Hin.
Qed.

(** Supported data (no 128-bit integers, supported keys, offsets that still fit after rounding
    to the minute) does convert. *)
Theorem C17_supported_total : forall d, supported d = true -> exists v, to_value d = Ok v.
Proof. exact (fun d => decides_true (to_value_spec d)). Qed.

(** For JSON-representable data, converting and then exporting equals serialising directly
    (model of serde_json's own serializer: [json_direct]). *)
Theorem C17_json_commutes : forall d, jrepr d = true ->
  exists v j, to_value d = Ok v /\ json_of_value v = Ok j /\ json_direct d = Ok j.
Proof. exact conversion_commutes. Qed.

Example C17_ex_commute :
  let d := SStruct [($"a", SInt (-3)); ($"b", SSeq [SNone; SFloat (f64_of_Z 2); SMap [(SUint 1, SStr $"x")]])] in
  jrepr d = true /\ supported d = true /\
  to_value d = Ok (VMap [(KStr $"a", VInt (-3));
                         (KStr $"b", VList [VNull; VDbl (f64_of_Z 2); VMap [(KUint 1, VStr $"x")]])]).
Proof. vm_compute. repeat split. Qed.

Print Assumptions C17_no_crash.
Print Assumptions C17_shape.
Print Assumptions C17_map_semantics.
Print Assumptions C17_key_kinds.
Print Assumptions C17_map_keys_supported.
Print Assumptions C17_supported_total.
Print Assumptions C17_json_commutes.
