(** C16: timestamp(string(t)) == t. *)
From Coq Require Import String.
From Cel.Model Require Import Builtins.
From Cel.Proofs Require Import BaseFacts LexerTotal Digits TimestampProofs.
From Coq Require Import Lia.
Open Scope Z_scope.

Lemma take_pad n v rest : (1 <= n)%nat -> 0 <= v < 10 ^ Z.of_nat n ->
  take_digits n (pad_digits n v ++ rest) = Some (v, rest).
Proof.
  intros Hn Hv. pose proof (pad_digits_len n v Hn Hv) as L. unfold take_digits.
  rewrite firstn_app, skipn_app, L, Nat.sub_diag, firstn_all2, skipn_all2 by lia.
  cbn [firstn skipn app]. rewrite app_nil_r, L, Nat.eqb_refl, pad_digits_all, pad_digits_val by lia.
  reflexivity.
Qed.

Lemma take_two v rest : 0 <= v < 100 -> take_digits 2 (two v ++ rest) = Some (v, rest).
Proof. apply (take_pad 2). lia. Qed.

Lemma take_four v rest : 0 <= v < 10000 -> take_digits 4 (pad_digits 4 v ++ rest) = Some (v, rest).
Proof. apply (take_pad 4). lia. Qed.

Lemma expect_same c r : expect c (c :: r) = Some r.
Proof. unfold expect. now rewrite N.eqb_refl. Qed.

(** The fraction as [rfc3339] writes it and as [parse_rfc3339] reads it (typed as there, so that
    [fold] finds them): it is read back as the same nanoseconds. *)
Definition frac_text (nanos : Z) : list N :=
  if nanos =? 0 then []
  else if nanos mod 1000000 =? 0 then 46%N :: pad_digits 3 (nanos / 1000000)
  else if nanos mod 1000 =? 0 then 46%N :: pad_digits 6 (nanos / 1000)
  else 46%N :: pad_digits 9 nanos.

Definition read_frac (s11 : str) : Z * str * bool :=
  match s11 with
  | dot :: r => if (dot =? 46)%N then
                  let '(fs, r') := span is_digit r in
                  match fs with
                  | [] => (0, r, false)
                  | _ => let f9 := firstn 9 (fs ++ repeat 48%N 9) in (dec_num f9 0, r', true)
                  end
                else (0, s11, true)
  | [] => (0, s11, true)
  end.

Lemma read_frac_digits k v sg rest : (1 <= k <= 9)%nat -> 0 <= v < 10 ^ Z.of_nat k -> is_digit sg = false ->
  read_frac (46%N :: pad_digits k v ++ sg :: rest) = (v * 10 ^ Z.of_nat (9 - k), sg :: rest, true).
Proof.
  intros Hk Hv Hsg. pose proof (pad_digits_len k v ltac:(lia) Hv) as L.
  unfold read_frac. change ((46 =? 46)%N) with true. cbv iota.
  rewrite (span_app_stop is_digit _ (sg :: rest) (pad_digits_all k v ltac:(lia)) Hsg).
  rewrite match_cons by (intros E; rewrite E in L; cbn [length] in L; lia).
  assert (F : firstn 9 (pad_digits k v ++ repeat 48%N 9) = pad_digits k v ++ repeat 48%N (9 - k)).
  { rewrite firstn_app, L. rewrite firstn_all2 by lia. f_equal.
    assert (G : forall a b, firstn a (repeat 48%N (a + b)) = repeat 48%N a).
    { induction a as [|a IH]; intros b; [reflexivity|]. cbn [plus repeat firstn]. now rewrite IH. }
    replace 9%nat with ((9 - k) + k)%nat at 2 by lia. apply G. }
  rewrite F, dec_num_app, dec_num_zeros, pad_digits_val by lia. reflexivity.
Qed.

Lemma read_frac_text nanos sg rest : 0 <= nanos < 1000000000 -> is_digit sg = false -> (sg =? 46)%N = false ->
  read_frac (frac_text nanos ++ sg :: rest) = (nanos, sg :: rest, true).
Proof.
  intros Hn Hsg H46. unfold frac_text.
  destruct (Z.eqb_spec nanos 0) as [->|Hnz].
  - cbn [app read_frac]. now rewrite H46.
  - destruct (Z.eqb_spec (nanos mod 1000000) 0) as [E6|E6]; [|destruct (Z.eqb_spec (nanos mod 1000) 0) as [E3|E3]].
    all: cbn [app]; rewrite read_frac_digits by (cbn; lia || assumption); do 2 f_equal;
      cbn [Nat.sub Z.of_nat]; lia.
Qed.

Definition read_off (s12 : str) : option Z :=
  match s12 with
  | [z] => if ((z =? ch "Z") || (z =? ch "z"))%N then Some 0 else None
  | sg :: r =>
      if ((sg =? 43) || (sg =? 45))%N then
        match take_digits 2 r with
        | Some (oh, r1) =>
            match expect 58 r1 with
            | Some r2 => match take_digits 2 r2 with
                         | Some (om, []) =>
                             if (oh <? 24) && (om <? 60)
                             then Some ((if (sg =? 45)%N then -1 else 1) * (oh * 3600 + om * 60)) else None
                         | _ => None
                         end
            | None => None
            end
        | None => None
        end
      else None
  | [] => None
  end.

Lemma read_off_text off : off mod 60 = 0 -> -86400 < off < 86400 ->
  read_off ([if off <? 0 then 45%N else 43%N] ++ two (Z.abs off / 3600) ++ [58%N] ++ two ((Z.abs off mod 3600) / 60)) = Some off.
Proof.
  intros Hm Hr. cbn [app]. set (ao := Z.abs off). assert (Ha : 0 <= ao < 86400) by lia.
  unfold read_off.
  destruct (two (ao / 3600) ++ 58%N :: two (ao mod 3600 / 60)) as [|c0 l0] eqn:E.
  { apply (f_equal (@length N)) in E. rewrite app_length in E. cbn [length] in E. lia. }
  rewrite <- E.
  replace (N.eqb (if off <? 0 then 45%N else 43%N) 43 || N.eqb (if off <? 0 then 45%N else 43%N) 45) with true
    by (now destruct (off <? 0)).
  rewrite take_two, expect_same by lia. rewrite <- (app_nil_r (two (ao mod 3600 / 60))), take_two by lia.
  replace ((ao / 3600 <? 24) && (ao mod 3600 / 60 <? 60)) with true by lia. f_equal.
  destruct (Z.ltb_spec off 0); cbn [N.eqb Pos.eqb]; lia.
Qed.

(** timestamp(string(t)) == t: for every instant whose local year has four digits and every
    whole-minute offset within a day (the offsets RFC 3339 can write). *)
Theorem rfc3339_roundtrip ns off :
  0 <= f_year (local_fields ns off) <= 9999 -> off mod 60 = 0 -> -86400 < off < 86400 ->
  parse_rfc3339 (rfc3339 ns off) = Some (Some (ns, off)).
Proof.
  intros Hy Hm Hr. unfold rfc3339.
  pose proof (fields_spec ns off) as F. cbv zeta in F.
  set (f := local_fields ns off) in *.
  destruct F as (Fd & Fv & Fh & Fmi & Fs & Fn & Fl).
  destruct (valid_bounds _ _ _ Fv) as [Bm Bd].
  assert (E : (days_from_civil (f_year f) (f_month f) (f_day f) * 86400 + f_hour f * 3600 + f_min f * 60 + f_sec f)
              * ns_per_s + f_nanos f - off * ns_per_s = ns).
  { change ((ns + off * ns_per_s) / ns_per_s / 86400) with (f_days f) in Fd. rewrite Fd. lia. }
  clear Fd Fl.
  replace ((0 <=? f_year f) && (f_year f <=? 9999)) with true by lia.
  replace ((Z.abs off + 30) / 60 * 60) with (Z.abs off) by lia.
  pose proof (read_off_text off Hm Hr) as Ro. cbn [app] in Ro. unfold read_off in Ro. clear Hm.
  fold (frac_text (f_nanos f)). cbn [app]. unfold parse_rfc3339.
  rewrite take_four, expect_same by lia. rewrite take_two, expect_same by lia. rewrite take_two by lia.
  rewrite N.eqb_refl. cbn [orb negb].
  rewrite take_two, expect_same by lia. rewrite take_two, expect_same by lia. rewrite take_two by lia.
  pose proof (read_frac_text (f_nanos f) (if off <? 0 then 45%N else 43%N)
                (two (Z.abs off / 3600) ++ 58%N :: two (Z.abs off mod 3600 / 60))
                ltac:(unfold ns_per_s in Fn; lia) ltac:(now destruct (off <? 0)) ltac:(now destruct (off <? 0))) as Rf.
  unfold read_frac in Rf. rewrite Rf. cbn [negb]. rewrite Ro.
  rewrite Fv. replace (f_hour f <? 24) with true by lia. replace (f_min f <? 60) with true by lia.
  replace (f_sec f <=? 60) with true by lia. cbn [andb negb].
  replace (f_sec f =? 60) with false by lia. now rewrite E.
Qed.
