(** C15: the print/parse round trip of durations, for every duration in signed 64-bit nanoseconds. *)
From Coq Require Import String.
From Cel.Model Require Import Builtins.
From Cel.Proofs Require Import BaseFacts LexerTotal Digits NumericProofs DurationProofs.
From Coq Require Import Lia.
Open Scope Z_scope.

Lemma dec_num_scale l : forall a, dec_num l a = a * 10 ^ Z.of_nat (length l) + dec_num l 0.
Proof.
  induction l as [|c l IH]; intros a; cbn [dec_num length].
  - lia.
  - rewrite (IH (a * 10 + _)), (IH (0 * 10 + _)). rewrite Nat2Z.inj_succ, Z.pow_succ_r by lia. lia.
Qed.

Definition dotfrac (fpd : str) : str := match fpd with [] => [] | _ => 46%N :: fpd end.

Lemma fmt_frac_eq v prec :
  fmt_frac v prec = (dotfrac (strip_trailing (pad_digits prec (v mod 10 ^ Z.of_nat prec))), v / 10 ^ Z.of_nat prec).
Proof. reflexivity. Qed.

Lemma fmt_frac_0 v : fmt_frac v 0 = ([], v).
Proof. unfold fmt_frac. change (10 ^ Z.of_nat 0) with 1. now rewrite Z.mod_1_r, Z.div_1_r. Qed.

(** the digits printed for the fraction [v], followed by the zeros that were stripped, denote [v] *)
Lemma frac_props prec v : 0 <= v < 10 ^ Z.of_nat prec ->
  let ds := strip_trailing (pad_digits prec v) in
  forallb is_digit ds = true /\ exists j, (length ds + j = prec)%nat /\ dec_num ds 0 * 10 ^ Z.of_nat j = v.
Proof.
  intros Hv ds. destruct prec as [|k].
  - (* no digits: [v] is 0, printed as one zero, which is stripped *)
    assert (v = 0) by (change (10 ^ Z.of_nat 0) with 1 in Hv; lia). subst v.
    split; [reflexivity|]. exists 0%nat. split; reflexivity.
  - destruct (strip_spec (pad_digits (S k) v)) as [j Hj].
    pose proof (pad_digits_all (S k) v ltac:(lia)) as A. pose proof (pad_digits_val (S k) v ltac:(lia)) as D.
    pose proof (pad_digits_len (S k) v ltac:(lia) Hv) as L. rewrite Hj in A, D, L.
    rewrite forallb_app in A. rewrite dec_num_app, dec_num_zeros in D. rewrite app_length, repeat_length in L.
    apply andb_prop in A as [A _]. split; [exact A|]. exists j. split; [exact L|exact D].
Qed.

Lemma frac_num_chars v prec : forallb is_num_char (fst (fmt_frac v prec)) = true.
Proof.
  rewrite fmt_frac_eq. cbn [fst].
  assert (Hp : 0 < 10 ^ Z.of_nat prec) by (apply Z.pow_pos_nonneg; lia).
  destruct (frac_props prec _ (Z.mod_pos_bound v _ Hp)) as [A _].
  apply (forallb_imp is_digit is_num_char) in A; [|unfold is_num_char; now intros x ->].
  destruct (strip_trailing _); [reflexivity|exact A].
Qed.

Lemma opt_frac_ok fpd r : forallb is_digit fpd = true ->
  match r with c :: _ => is_num_char c = false | [] => True end -> opt_frac (dotfrac fpd ++ r) = (fpd, r).
Proof.
  intros Hf Hr. destruct fpd as [|f0 fp']; cbn [dotfrac app opt_frac].
  - destruct r as [|c r']; [reflexivity|]. cbn [opt_frac]. apply orb_false_elim in Hr as [_ ->]. reflexivity.
  - change ((46 =? 46)%N) with true. cbv iota. apply (span_app_stop is_digit (f0 :: fp') r Hf).
    destruct r as [|c r']; [exact I|]. now apply orb_false_elim in Hr as [-> _].
Qed.

(** [parse_term] reads at most 25 digits of a fraction ([firstn 25]): hence the bound on [fpd]. *)
Lemma parse_term_ok ipd fpd u ns rest :
  forallb is_digit ipd = true -> ipd <> [] -> forallb is_digit fpd = true -> (length fpd <= 25)%nat ->
  unit_ns u = Some ns -> forallb (fun c => negb (is_num_char c)) u = true -> stop_ok rest ->
  dec_num ipd 0 * ns <= limit63 ->
  parse_term (ipd ++ dotfrac fpd ++ u ++ rest) =
  Some (dec_num ipd 0 * ns + dec_num fpd 0 * ns / 10 ^ Z.of_nat (length fpd), rest).
Proof.
  intros Hip Hne Hfp Hlen Hu Hun Hstop Hlim. unfold parse_term.
  destruct u as [|uc u']; [discriminate Hu|]. pose proof Hun as Huc. cbn [forallb] in Huc.
  apply andb_prop in Huc as [Huc _]. apply negb_true_iff in Huc.
  assert (Hd : is_digit uc = false) by now apply orb_false_elim in Huc as [-> _].
  rewrite (span_app_stop is_digit ipd _ Hip) by (destruct fpd; [exact Hd|reflexivity]).
  fold (opt_frac (dotfrac fpd ++ (uc :: u') ++ rest)). rewrite (opt_frac_ok fpd ((uc :: u') ++ rest) Hfp Huc).
  rewrite (match_cons (ipd ++ fpd)) by (destruct ipd; [congruence|discriminate]).
  rewrite (span_app_stop _ (uc :: u') rest Hun), Hu.
  - destruct (Z.ltb_spec limit63 (dec_num ipd 0 * ns)); [lia|]. now rewrite firstn_all2.
  - destruct rest as [|c r]; [exact I|]. now rewrite Hstop.
Qed.

(** A term as [format_duration] writes it: whole units [q], then the fraction that [v] is of
    [10^prec], then a unit that is [c * 10^prec] ns. *)
Lemma term_ok q v prec c unit rest : (prec <= 25)%nat -> 0 <= q -> 0 <= c ->
  unit_ns unit = Some (c * 10 ^ Z.of_nat prec) -> forallb (fun c => negb (is_num_char c)) unit = true ->
  stop_ok rest -> c * (q * 10 ^ Z.of_nat prec + v mod 10 ^ Z.of_nat prec) <= limit63 ->
  parse_term (nat_digits q ++ fst (fmt_frac v prec) ++ unit ++ rest) =
  Some (c * (q * 10 ^ Z.of_nat prec + v mod 10 ^ Z.of_nat prec), rest).
Proof.
  intros Hp Hq Hc Hu Hun Hr Hl. rewrite fmt_frac_eq. cbn [fst].
  set (p := 10 ^ Z.of_nat prec) in *. assert (Hpp : 0 < p) by (apply Z.pow_pos_nonneg; lia).
  pose proof (Z.mod_pos_bound v p Hpp) as Hm.
  destruct (frac_props prec (v mod p) Hm) as (A & j & L & D).
  destruct (nat_digits_spec q Hq) as (V & Dq & _).
  pose proof (Z.mul_nonneg_nonneg c (v mod p) Hc ltac:(lia)).
  rewrite (parse_term_ok (nat_digits q) _ unit (c * p) rest Dq (nat_digits_nonempty q Hq) A ltac:(lia) Hu Hun Hr);
    rewrite V; [|lia].
  (* the stripped zeros are made up by the unit: [p = 10^length * 10^j] *)
  set (ds := strip_trailing _) in *. set (n := dec_num ds 0) in *.
  assert (Ep : p = 10 ^ Z.of_nat (length ds) * 10 ^ Z.of_nat j)
    by (unfold p; rewrite <- L, Nat2Z.inj_add, Z.pow_add_r by lia; reflexivity).
  replace (n * (c * p)) with (c * (v mod p) * 10 ^ Z.of_nat (length ds)) by (rewrite <- D, Ep; ring).
  rewrite Z.div_mul by (apply Z.pow_nonzero; lia). f_equal. f_equal. ring.
Qed.

Section Terms.
  Context {A : Type} (text : A -> str) (ns : A -> Z).

  (** [text t] starts with a number and parses as one term of [ns t] nanoseconds, whatever
      follows it *)
  Definition reads_as (t : A) : Prop :=
    text t <> [] /\ stop_ok (text t) /\ 0 <= ns t /\
    forall rest, stop_ok rest -> ns t <= limit63 -> parse_term (text t ++ rest) = Some (ns t, rest).

  Definition total_ns (ts : list A) : Z := fold_right (fun t a => ns t + a) 0 ts.

  Lemma parse_terms_concat ts : Forall reads_as ts ->
    stop_ok (concat (map text ts)) /\ 0 <= total_ns ts /\
    forall f acc, (length (concat (map text ts)) < f)%nat -> 0 <= acc -> acc + total_ns ts <= limit63 ->
      parse_terms f (concat (map text ts)) acc = Some (acc + total_ns ts).
  Proof.
    induction 1 as [|t ts (Hne & Hs & Ht & Hp) _ (IHs & IH0 & IH)]; cbn [map concat total_ns fold_right].
    - repeat split; [lia|]. intros [|f] acc _ _ _; cbn [parse_terms]; f_equal; lia.
    - fold (total_ns ts). destruct (text t) as [|c s] eqn:E; [congruence|]. repeat split; [exact Hs|lia|].
      intros [|f] acc Hf Ha Hl; [lia|]. cbn [app parse_terms].
      change (c :: s ++ concat (map text ts)) with ((c :: s) ++ concat (map text ts)).
      rewrite (Hp _ IHs) by lia. destruct (Z.ltb_spec limit63 (acc + ns t)); [lia|].
      rewrite IH; [f_equal; lia| |lia|lia]. cbn [app length] in Hf. rewrite app_length in Hf. lia.
  Qed.
End Terms.

Lemma parse_term_head c r v rest : parse_term (c :: r) = Some (v, rest) -> is_num_char c = true.
Proof.
  unfold parse_term, is_num_char. cbn [span]. destruct (is_digit c); [reflexivity|].
  destruct (c =? 46)%N; [reflexivity|discriminate].
Qed.

Lemma parse_duration_terms (neg : bool) text t :
  parse_terms (S (length text)) text 0 = Some t -> 0 < t -> (neg = false -> t < limit63) ->
  parse_duration ((if neg then [45%N] else []) ++ text) = Some (if neg then - t else t).
Proof.
  intros Hp Ht Hlt. destruct text as [|c r]; [injection Hp; lia|].
  assert (E0 : str_eqb (c :: r) $"0" = false).
  { destruct (str_eqb (c :: r) $"0") eqn:E; [|reflexivity]. apply str_eqb_eq in E. rewrite E in Hp. discriminate Hp. }
  unfold parse_duration. destruct neg; cbn [app].
  - change ((45 =? 45)%N) with true. cbv iota. rewrite E0, Hp. reflexivity.
  - assert (Hc : is_num_char c = true).
    { cbn [parse_terms] in Hp. destruct (parse_term (c :: r)) as [[v rest]|] eqn:E; [|discriminate].
      exact (parse_term_head _ _ _ _ E). }
    assert (E1 : (c =? 45)%N = false) by (unfold is_num_char, is_digit in Hc; lia).
    assert (E2 : (c =? 43)%N = false) by (unfold is_num_char, is_digit in Hc; lia).
    rewrite E1, E2, E0, Hp. destruct (Z.ltb_spec t limit63); [reflexivity|]. specialize (Hlt eq_refl). lia.
Qed.

Inductive dunit := Uns | Uus | Ums | Us | Um | Uh.

(** A unit is [unit_mult * unit_scale] ns; [unit_scale = 10 ^ unit_prec] is what the fraction
    printed before it counts. *)
Definition unit_prec (k : dunit) : nat := match k with Uus => 3 | Ums => 6 | Us => 9 | _ => 0 end.
Definition unit_scale (k : dunit) : Z :=
  match k with Uus => 1000 | Ums => 1000000 | Us => 1000000000 | _ => 1 end.
Definition unit_mult (k : dunit) : Z :=
  match k with Um => 60000000000 | Uh => 3600000000000 | _ => 1 end.
Definition unit_text (mu : str) (k : dunit) : str :=
  match k with Uns => $"ns" | Uus => mu | Ums => $"ms" | Us => $"s" | Um => $"m" | Uh => $"h" end.

(** "µs" as [format_duration] writes it in UTF-8, and as code points *)
Definition mu8 : str := [194; 181; 115]%N.
Definition micro : str := [181; 115]%N.

Lemma unit_scale_eq k : 10 ^ Z.of_nat (unit_prec k) = unit_scale k.
Proof. now destruct k. Qed.

Lemma unit_text_ok k :
  unit_ns (unit_text micro k) = Some (unit_mult k * 10 ^ Z.of_nat (unit_prec k)) /\
  forallb (fun c => negb (is_num_char c)) (unit_text micro k) = true.
Proof. now destruct k. Qed.

(** a term of the rendering of [u]: whole units, the fraction [u] leaves at the unit's
    precision, the unit *)
Definition term_text (mu : str) (u : Z) (t : Z * dunit) : str :=
  nat_digits (fst t) ++ fst (fmt_frac u (unit_prec (snd t))) ++ unit_text mu (snd t).
Definition term_ns (u : Z) (t : Z * dunit) : Z :=
  unit_mult (snd t) * (fst t * unit_scale (snd t) + u mod unit_scale (snd t)).

(** The terms [format_duration] writes for the magnitude [u] ([format_body]). *)
Definition body_terms (u : Z) : list (Z * dunit) :=
  if u <? 1000000000 then
    [if u <? 1000 then (u, Uns) else if u <? 1000000 then (u / 1000, Uus) else (u / 1000000, Ums)]
  else
    let secs := u / 1000000000 in
    let mins := secs / 60 in
    let ms := [(mins mod 60, Um); (secs mod 60, Us)] in
    if mins =? 0 then [(secs mod 60, Us)] else if mins / 60 =? 0 then ms else (mins / 60, Uh) :: ms.

Definition body_text (mu : str) (u : Z) : str := concat (map (term_text mu u) (body_terms u)).

Lemma format_body d : in_i64 d = true -> d <> 0 ->
  format_duration d = (if d <? 0 then [45%N] else []) ++ body_text mu8 (Z.abs d).
Proof.
  intros Hd Hz. unfold format_duration. rewrite Hd. set (u := Z.abs d).
  destruct (Z.eqb_spec u 0); [lia|]. unfold body_text, body_terms.
  destruct (d <? 0); cbn [app]; [f_equal|];
    (destruct (u <? 1000000000);
     [destruct (u <? 1000); [|destruct (u <? 1000000)]
     |rewrite (fmt_frac_eq u 9); change (10 ^ Z.of_nat 9) with 1000000000; cbv beta iota;
      destruct (u / 1000000000 / 60 =? 0); [|destruct (u / 1000000000 / 60 / 60 =? 0)]]);
    cbn [map concat]; unfold term_text; cbn [fst snd unit_prec unit_text];
    rewrite ?fmt_frac_0, ?app_nil_r, <- ?app_assoc; reflexivity.
Qed.

(** The rendering as code points: [format_duration_str] decodes the bytes above *)
Definition utf8_of (b s : str) : Prop := utf8_enc s = b /\ forallb is_scalar s = true.

Lemma utf8_of_app b1 s1 b2 s2 : utf8_of b1 s1 -> utf8_of b2 s2 -> utf8_of (b1 ++ b2) (s1 ++ s2).
Proof. intros [<- S1] [<- S2]. split; [apply flat_map_app|now rewrite forallb_app, S1, S2]. Qed.

Lemma utf8_of_ascii l : ascii_only l = true -> utf8_of l l.
Proof.
  unfold ascii_only, utf8_of, utf8_enc. induction l as [|c l IH]; cbn [forallb flat_map]; [now split|].
  intros H. apply andb_prop in H as [Hc Hl]. destruct (IH Hl) as [-> ->].
  unfold utf8_enc1, is_scalar. rewrite Hc. split; [reflexivity|lia].
Qed.

Lemma term_utf8 u t : 0 <= fst t -> utf8_of (term_text mu8 u t) (term_text micro u t).
Proof.
  intros Hq. unfold term_text. rewrite !app_assoc. apply utf8_of_app; [|now destruct (snd t)].
  apply utf8_of_ascii, (forallb_imp is_num_char); [unfold is_num_char, is_digit; lia|].
  rewrite forallb_app, frac_num_chars, andb_true_r.
  apply (forallb_imp is_digit); [unfold is_num_char; now intros x ->|apply (nat_digits_spec _ Hq)].
Qed.

Lemma body_terms_ok u : 0 < u ->
  Forall (fun t => 0 <= fst t) (body_terms u) /\ total_ns (term_ns u) (body_terms u) = u.
Proof.
  intros Hu. unfold body_terms. cbv zeta.
  destruct (Z.ltb_spec u 1000000000);
    [destruct (Z.ltb_spec u 1000); [|destruct (Z.ltb_spec u 1000000)]
    |destruct (Z.eqb_spec (u / 1000000000 / 60) 0); [|destruct (Z.eqb_spec (u / 1000000000 / 60 / 60) 0)]];
    (split; [repeat constructor; cbn [fst]|unfold total_ns, term_ns; cbn [fold_right fst snd unit_mult unit_scale]]);
    Z.div_mod_to_equations; lia.
Qed.

Lemma format_str d : in_i64 d = true -> d <> 0 ->
  format_duration_str d = (if d <? 0 then [45%N] else []) ++ body_text micro (Z.abs d).
Proof.
  intros Hd Hz. unfold format_duration_str. rewrite (format_body d Hd Hz).
  assert (U : utf8_of ((if d <? 0 then [45%N] else []) ++ body_text mu8 (Z.abs d))
                      ((if d <? 0 then [45%N] else []) ++ body_text micro (Z.abs d))).
  { apply utf8_of_app; [apply utf8_of_ascii; now destruct (d <? 0)|]. unfold body_text.
    destruct (body_terms_ok (Z.abs d) ltac:(lia)) as [Hq _].
    induction Hq as [|t ts Ht _ IH]; cbn [map concat]; [now split|].
    apply utf8_of_app; [now apply term_utf8|exact IH]. }
  destruct U as [<- S]. now rewrite utf8_roundtrip.
Qed.

Lemma term_reads u t : 0 <= fst t -> reads_as (term_text micro u) (term_ns u) t.
Proof.
  destruct t as [q k]. cbn [fst]. intros Hq. destruct (nat_digits_head q Hq) as (c & r & E & Hc).
  destruct (unit_text_ok k) as [U1 U2].
  unfold reads_as, term_text, term_ns. cbn [fst snd]. rewrite <- unit_scale_eq. repeat split.
  - rewrite E. discriminate.
  - rewrite E. cbn [app stop_ok]. unfold is_num_char. now rewrite Hc.
  - rewrite unit_scale_eq. destruct k; cbn [unit_mult unit_scale]; Z.div_mod_to_equations; lia.
  - intros rest Hr Hl. rewrite <- !app_assoc.
    apply term_ok; [destruct k; cbn [unit_prec]; lia|exact Hq|now destruct k|exact U1|exact U2|exact Hr|exact Hl].
Qed.

Theorem body_roundtrip u : 0 < u <= limit63 ->
  parse_terms (S (length (body_text micro u))) (body_text micro u) 0 = Some u.
Proof.
  intros Hu. destruct (body_terms_ok u ltac:(lia)) as [Hq Hs].
  destruct (parse_terms_concat (term_text micro u) (term_ns u) (body_terms u)) as (_ & _ & P).
  - revert Hq. apply Forall_impl. intros t. apply term_reads.
  - unfold body_text. rewrite P by lia. f_equal. lia.
Qed.

Theorem duration_roundtrip d : in_i64 d = true -> parse_duration (format_duration_str d) = Some d.
Proof.
  intros Hd. destruct (Z.eq_dec d 0) as [->|Hz]; [reflexivity|]. rewrite (format_str d Hd Hz).
  assert (Hu : 0 < Z.abs d <= limit63) by (unfold in_i64, i64_min, i64_max, limit63 in *; lia).
  rewrite (parse_duration_terms (d <? 0) _ (Z.abs d) (body_roundtrip _ Hu))
    by (unfold in_i64, i64_max, limit63 in *; lia).
  f_equal. destruct (Z.ltb_spec d 0); lia.
Qed.
