(** C16: getDayOfYear.  The accessor is the day number of the local date minus the day number of
    January 1st of the local year; this file proves that this is the ordinal of the date as a
    calendar defines it - the days of the earlier months of that year plus the day of the month,
    counted from 0 - and that it lies in 0..364 (0..365 in leap years), for every timestamp. *)
From Coq Require Import Lia.
From Cel.Model Require Import Timestamp.
From Cel.Proofs Require Import TimestampProofs.
Open Scope Z_scope.

(** days of the months 1..k of year y *)
Fixpoint days_upto (y : Z) (k : nat) : Z :=
  match k with
  | O => 0
  | S k' => days_upto y k' + days_in_month y (Z.of_nat k)
  end.

(** the ordinal of a date, from 0: what chrono's [ordinal0] is *)
Definition ordinal0 (y m d : Z) : Z := days_upto y (Z.to_nat (m - 1)) + d - 1.
Definition last_ordinal (y : Z) : Z := if is_leap y then 365 else 364.

(** In [days_from_civil] the year turns on March 1st; seen from January 1st the months from March
    on are preceded by January, February and the March-based month starts. *)
Lemma day_in_year y m d : 1 <= m <= 12 ->
  days_from_civil y m d - days_from_civil y 1 1 =
  (if m <=? 2 then 31 * (m - 1) else (153 * (m - 3) + 2) / 5 + if is_leap y then 60 else 59) + d - 1.
Proof.
  intros Hm. unfold days_from_civil. change (1 <=? 2) with true. change (2 <? 1) with false. cbv iota.
  destruct (m <=? 2) eqn:E.
  - replace (2 <? m) with false by lia. lia.
  - replace (2 <? m) with true by lia. destruct (is_leap y) eqn:L; unfold is_leap in L; lia.
Qed.

Lemma days_upto_month y m : 1 <= m <= 12 ->
  days_upto y (Z.to_nat (m - 1)) =
  if m <=? 2 then 31 * (m - 1) else (153 * (m - 3) + 2) / 5 + if is_leap y then 60 else 59.
Proof.
  intros Hm.
  assert (M : m = 1 \/ m = 2 \/ m = 3 \/ m = 4 \/ m = 5 \/ m = 6 \/ m = 7 \/ m = 8 \/ m = 9 \/
              m = 10 \/ m = 11 \/ m = 12) by lia.
  repeat (destruct M as [->|M]); try subst m; cbv -[is_leap]; destruct (is_leap y); reflexivity.
Qed.

Theorem ordinal_of_date y m d : valid_date y m d = true ->
  days_from_civil y m d - days_from_civil y 1 1 = ordinal0 y m d /\
  0 <= ordinal0 y m d <= last_ordinal y.
Proof.
  intros Hv. pose proof (valid_bounds y m d Hv) as [Hm _].
  rewrite (day_in_year y m d Hm). unfold ordinal0. rewrite (days_upto_month y m Hm).
  split; [reflexivity|]. unfold valid_date in Hv. unfold last_ordinal.
  destruct (Z.eq_dec m 2) as [->|H2].
  - unfold days_in_month in Hv. change (2 =? 2) with true in Hv. change (2 <=? 2) with true.
    cbv iota in *. destruct (is_leap y); lia.
  - rewrite (month_len y m Hm H2) in Hv. cbv zeta in Hv.
    destruct (m <=? 2) eqn:E, (2 <? m) eqn:E2, (is_leap y); lia.
Qed.

(** getDayOfYear of any timestamp is the ordinal (from 0) of its local date. *)
Theorem day_of_year_spec ns off :
  let f := local_fields ns off in
  access ADayOfYear ns off = ordinal0 (f_year f) (f_month f) (f_day f) /\
  0 <= access ADayOfYear ns off <= last_ordinal (f_year f).
Proof.
  destruct (fields_spec ns off) as (H1 & H2 & _). unfold access.
  destruct (ordinal_of_date _ _ _ H2) as [E R].
  assert (Hd : f_days (local_fields ns off) = (ns + off * ns_per_s) / ns_per_s / 86400) by reflexivity.
  rewrite Hd, <- H1. split; [exact E|rewrite E; exact R].
Qed.
