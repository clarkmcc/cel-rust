(** C05: an execution depends on the context only through the function registry and the
    lookups of the identifiers that occur in the program (frame property). *)
From Cel.Model Require Import Eval.
From Cel.Proofs Require Import BaseFacts EvalBase ContextProofs.

(** The identifiers that occur in [e], macro-internal ones included; none under [EStruct], which
    [eval] rejects without looking at the fields. *)
Fixpoint occ_vars (e : expr) : list str :=
  match e with
  | EUnspec | ELit _ => []
  | EIdent x => [x]
  | ECall _ t args =>
      match t with Some t' => occ_vars t' | None => [] end ++
      (fix go (l : list expr) : list str := match l with [] => [] | a :: l' => occ_vars a ++ go l' end) args
  | ESelect o _ _ => occ_vars o
  | EList es => (fix go (l : list expr) : list str := match l with [] => [] | a :: l' => occ_vars a ++ go l' end) es
  | EMap es => (fix go (l : list (expr * expr)) : list str :=
                  match l with [] => [] | (k, v) :: l' => occ_vars k ++ occ_vars v ++ go l' end) es
  | EStruct _ fs => []
  | EComp r _ _ i c s res => occ_vars r ++ occ_vars i ++ occ_vars c ++ occ_vars s ++ occ_vars res
  end.

Lemma occ_call f t args :
  occ_vars (ECall f t args) =
  match t with Some t' => occ_vars t' | None => [] end ++ flat_map occ_vars args.
Proof. reflexivity. Qed.

Lemma occ_list es : occ_vars (EList es) = flat_map occ_vars es.
Proof. reflexivity. Qed.

Lemma occ_map es :
  occ_vars (EMap es) = flat_map (fun kv => occ_vars (fst kv) ++ occ_vars (snd kv)) es.
Proof.
  induction es as [|[k v] es IH]; [reflexivity|].
  cbn [occ_vars flat_map fst snd] in *. now rewrite IH, app_assoc.
Qed.

Definition agree (S : str -> Prop) (c1 c2 : ctx) : Prop :=
  funs c1 = funs c2 /\ forall x, S x -> lookup c1 x = lookup c2 x.

Lemma agree_funs S c1 c2 : agree S c1 c2 -> funs c1 = funs c2.
Proof. now intros [Hf _]. Qed.
Lemma agree_lookup (S : str -> Prop) c1 c2 x : agree S c1 c2 -> S x -> lookup c1 x = lookup c2 x.
Proof. intros [_ Hl]. apply Hl. Qed.
Lemma agree_refl S c : agree S c c.
Proof. split; reflexivity. Qed.
Lemma agree_sub (S S' : str -> Prop) c1 c2 : (forall x, S' x -> S x) -> agree S c1 c2 -> agree S' c1 c2.
Proof. intros H [Hf Hl]. split; auto. Qed.
Lemma agree_define S c1 c2 x v : agree S c1 c2 -> agree S (define c1 x v) (define c2 x v).
Proof. intros [Hf Hl]. split; [exact Hf|]. intros y Hy. rewrite !lookup_define. now rewrite (Hl y Hy). Qed.
Lemma agree_push S c1 c2 : agree S c1 c2 -> agree S (push c1) (push c2).
Proof. intros [Hf Hl]. split; [exact Hf|]. intros x Hx. rewrite !lookup_push. exact (Hl x Hx). Qed.

Lemma agree_define_l (S : str -> Prop) c1 c2 x v : ~ S x -> agree S c1 c2 -> agree S (define c1 x v) c2.
Proof.
  intros Hx [Hf Hl]. split; [exact Hf|]. intros y Hy. rewrite lookup_define.
  destruct (str_eqb y x) eqn:E; [|now apply Hl]. apply str_eqb_eq in E. now subst.
Qed.
Lemma agree_push_l S c1 c2 : agree S c1 c2 -> agree S (push c1) c2.
Proof. intros [Hf Hl]. split; [exact Hf|]. intros x Hx. rewrite lookup_push. exact (Hl x Hx). Qed.

Lemma member_funs c1 c2 v f : funs c1 = funs c2 -> member c1 v f = member c2 v f.
Proof. intros Hf. unfold member, has_function, get_function. now rewrite Hf. Qed.

Lemma call_dispatch_funs c1 c2 f rt rs args : funs c1 = funs c2 ->
  call_dispatch c1 f rt rs args = call_dispatch c2 f rt rs args.
Proof. intros Hf. unfold call_dispatch, call_general, get_function. now rewrite Hf. Qed.

Lemma comp_loop_agree S iv av cond step res :
  (forall c1 c2, agree S c1 c2 -> eval c1 cond = eval c2 cond) ->
  (forall c1 c2, agree S c1 c2 -> eval c1 step = eval c2 step) ->
  (forall c1 c2, agree S c1 c2 -> eval c1 res = eval c2 res) ->
  forall its c1 c2, agree S c1 c2 ->
  comp_loop eval iv av cond step res its c1 [] = comp_loop eval iv av cond step res its c2 [].
Proof.
  intros Hc Hs Hr. induction its as [|it rest IH]; intros c1 c2 E.
  - rewrite !comp_loop_nil. exact (Hr c1 c2 E).
  - rewrite !comp_loop_cons, (Hc c1 c2 E). apply rbind_ext. intros vc.
    destruct (to_bool vc); [|exact (Hr c1 c2 E)].
    rewrite (Hs (define c1 iv it) (define c2 iv it)) by now apply agree_define.
    apply rbind_ext. intros va. apply IH. now repeat apply agree_define.
Qed.

Theorem eval_frame e : forall (S : str -> Prop), Forall S (occ_vars e) ->
  forall c1 c2, agree S c1 c2 -> eval c1 e = eval c2 e.
Proof.
  induction e using expr_ind'; intros S HS c1 c2 E; pose proof E as [Hf Hl].
  - reflexivity.
  - reflexivity.
  - rewrite !eval_ident. rewrite Hl; [reflexivity|]. now inversion HS.
  - rewrite occ_call, Forall_app, Forall_flat_map in HS. destruct HS as [HSt HSa].
    rewrite !eval_call.
    assert (Ha : map (eval c1) args = map (eval c2) args).
    { apply map_ext_in. intros a Ha. rewrite Forall_forall in H0, HSa. now apply (H0 a Ha S); [apply HSa|]. }
    assert (Ht : option_map (eval c1) target = option_map (eval c2) target).
    { destruct target as [t|]; cbn [option_map]; [|reflexivity]. f_equal. now apply (H t eq_refl S). }
    rewrite Ha, Ht. now apply call_dispatch_funs.
  - rewrite !eval_select, (IHe S HS c1 c2 E). apply rbind_ext. intros v.
    destruct t; [reflexivity|]. now rewrite (member_funs c1 c2).
  - rewrite occ_list, Forall_flat_map in HS.
    rewrite !eval_list. apply list_go_ext. rewrite Forall_forall in *. intros a Ha.
    now apply (H a Ha S); [apply HS|].
  - rewrite occ_map, Forall_flat_map in HS.
    rewrite !eval_map. apply map_go_ext. rewrite Forall_forall in *. intros kv Hkv.
    destruct (H kv Hkv) as [H1 H2]. specialize (HS kv Hkv). apply Forall_app in HS as [HSk HSv].
    split; [now apply (H1 S)|now apply (H2 S)].
  - reflexivity.
  - cbn [occ_vars] in HS. rewrite !Forall_app in HS. destruct HS as (S1 & S2 & S3 & S4 & S5).
    rewrite !eval_comp, (IHe2 S S2 c1 c2 E), (IHe1 S S1 c1 c2 E).
    apply rbind_ext. intros vi. apply range_fold_ext. intros items.
    apply (comp_loop_agree S iv av e3 e4 e5 (IHe3 S S3) (IHe4 S S4) (IHe5 S S5)).
    apply agree_define. now apply agree_push.
Qed.
