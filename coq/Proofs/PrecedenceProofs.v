(** C04: && / || chains keep their operands in source order (balanced trees), prefix-operator
    runs cancel in pairs. *)
From Coq Require Import String.
From Cel.Model Require Import Parser.
From Cel.Proofs Require Import ParserUnfold.
From Coq Require Import Lia.

Inductive itree := ILeaf (i : nat) | INode (l r : itree).

Fixpoint interp (fn : str) (terms : list expr) (t : itree) : expr :=
  match t with
  | ILeaf i => nth i terms EUnspec
  | INode l r => ECall fn None [interp fn terms l; interp fn terms r]
  end.

Fixpoint inorder (t : itree) : list nat :=
  match t with
  | ILeaf i => [i]
  | INode l r => inorder l ++ inorder r
  end.

Lemma mid_spec lo hi : (lo <= hi)%nat ->
  (lo <= (lo + hi + 1) / 2 <= hi)%nat /\ ((lo + hi + 1) / 2 = lo <-> lo = hi)%nat.
Proof.
  intros H. pose proof (Nat.div_mod (lo + hi + 1) 2 ltac:(lia)) as E.
  pose proof (Nat.mod_upper_bound (lo + hi + 1) 2 ltac:(lia)) as B. lia.
Qed.

Lemma balanced_shape fuel : forall fn terms lo hi,
  (hi - lo < fuel)%nat -> (lo <= hi)%nat ->
  exists t, balanced fuel fn terms lo hi = interp fn terms t /\
            inorder t = seq lo (hi - lo + 2).
Proof.
  induction fuel as [|f IH]; intros fn terms lo hi Hf Hle; [lia|].
  cbn [balanced]. set (mid := Nat.div (lo + hi + 1) 2).
  destruct (mid_spec lo hi Hle) as [Hmid Hml]. fold mid in Hmid, Hml. clearbody mid.
  destruct (Nat.eqb_spec mid lo) as [E1|E1]; destruct (Nat.eqb_spec mid hi) as [E2|E2].
  - exists (INode (ILeaf mid) (ILeaf (mid + 1))). split; [reflexivity|].
    replace (hi - lo + 2)%nat with 2%nat by lia.
    rewrite E1. replace (lo + 1)%nat with (S lo) by lia. reflexivity.
  - exfalso. lia.
  - destruct (IH fn terms lo (mid - 1)%nat ltac:(lia) ltac:(lia)) as (tl & Hl & Il).
    exists (INode tl (ILeaf (mid + 1))). split; [cbn [interp]; now rewrite Hl|].
    cbn [inorder]. rewrite Il.
    replace (hi - lo + 2)%nat with ((mid - 1 - lo + 2) + 1)%nat by lia.
    rewrite (seq_app (mid - 1 - lo + 2) 1 lo). f_equal. cbn [seq]. f_equal. lia.
  - destruct (IH fn terms lo (mid - 1)%nat ltac:(lia) ltac:(lia)) as (tl & Hl & Il).
    destruct (IH fn terms (mid + 1)%nat hi ltac:(lia) ltac:(lia)) as (tr & Hr & Ir).
    exists (INode tl tr). split; [cbn [interp]; now rewrite Hl, Hr|].
    cbn [inorder]. rewrite Il, Ir.
    replace (hi - lo + 2)%nat with ((mid - 1 - lo + 2) + (hi - (mid + 1) + 2))%nat by lia.
    rewrite (seq_app (mid - 1 - lo + 2) (hi - (mid + 1) + 2) lo). f_equal. f_equal. lia.
Qed.

(** The tree built for a chain t0 op t1 op ... tn has exactly the operands t0..tn as leaves,
    in source order, under nodes of that operator only. *)
Lemma logic_tree_order fn terms : (2 <= length terms)%nat ->
  exists t, logic_tree fn terms = interp fn terms t /\ inorder t = seq 0 (length terms).
Proof.
  intros H. unfold logic_tree.
  destruct terms as [|a [|b rest]]; [cbn in H; lia|cbn in H; lia|].
  destruct (balanced_shape (length (a :: b :: rest)) fn (a :: b :: rest) 0 (length (a :: b :: rest) - 2))
    as (t & Ht & It); [cbn [length]; lia|lia|].
  exists t. split; [exact Ht|]. rewrite It. f_equal. lia.
Qed.

Definition not_bang (ts : list tk) : Prop := match ts with x :: _ => is_bang x = false | [] => True end.
Definition not_minus (ts : list tk) : Prop := match ts with x :: _ => is_minus x = false | [] => True end.

Lemma bang_run n f ts : not_bang ts ->
  p_unary (S f) (repeat TBang (S n) ++ ts) =
  pbind (p_member f ts) (fun m => POk (if Nat.odd (S n) then ECall $"!_" None [m] else m)).
Proof.
  intros H. rewrite u_unary. exact (prefix_run_repeat is_bang TBang _ (S n) f ts eq_refl H).
Qed.

Lemma minus_run n f ts : not_minus ts -> (n = O -> is_number_tok ts = false) ->
  p_unary (S f) (repeat TMinus (S n) ++ ts) =
  pbind (p_member f ts) (fun m => POk (if Nat.odd (S n) then ECall $"-_" None [m] else m)).
Proof.
  intros H Hn. rewrite (u_unary_minus n f ts Hn).
  exact (prefix_run_repeat is_minus TMinus _ (S n) f ts eq_refl H).
Qed.
