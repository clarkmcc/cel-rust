(** C01: what every token list the grammar derives looks like.  One closure theorem, [G_closed],
    with two instances: brackets of each kind balance ([derivable_shape], which adds that the last
    token closes something) and they nest properly ([derivable_nested]). *)
From Coq Require Import Lia.
From Cel.Model Require Import Grammar.
Open Scope Z_scope.

Definition wparen (t : tk) : Z := match t with TLParen => 1 | TRParen => -1 | _ => 0 end.
Definition wbrack (t : tk) : Z := match t with TLBracket => 1 | TRBracket => -1 | _ => 0 end.
Definition wbrace (t : tk) : Z := match t with TLBrace => 1 | TRBrace => -1 | _ => 0 end.
Fixpoint sumw (w : tk -> Z) (ts : list tk) : Z :=
  match ts with [] => 0 | t :: r => w t + sumw w r end.
Lemma sumw_app w a b : sumw w (a ++ b) = sumw w a + sumw w b.
Proof. induction a as [|x a IH]; cbn [sumw app]; [reflexivity|]. rewrite IH. lia. Qed.

(** the tokens that can end an expression: no operator, opening bracket, dot or comma *)
Definition closer (t : tk) : bool :=
  match t with
  | TRBracket | TRBrace | TRParen | TTrue | TFalse | TNull
  | TFloat _ | TInt _ | TUint _ | TString _ | TBytes _ | TIdent _ | TEscIdent _ => true
  | _ => false
  end.
Definition ends (ts : list tk) : Prop := exists pre t, ts = pre ++ [t] /\ closer t = true.

Definition balanced (ts : list tk) : Prop :=
  sumw wparen ts = 0 /\ sumw wbrack ts = 0 /\ sumw wbrace ts = 0.

Scheme Gexpr_m := Minimality for Gexpr Sort Prop
  with Gor_m := Minimality for Gor Sort Prop
  with Gand_m := Minimality for Gand Sort Prop
  with Grel_m := Minimality for Grel Sort Prop
  with Gcalc_m := Minimality for Gcalc Sort Prop
  with Gunary_m := Minimality for Gunary Sort Prop
  with Gmember_m := Minimality for Gmember Sort Prop
  with Gprimary_m := Minimality for Gprimary Sort Prop
  with GexprList_m := Minimality for GexprList Sort Prop
  with GlistInit_m := Minimality for GlistInit Sort Prop
  with GmapInit_m := Minimality for GmapInit Sort Prop
  with GfieldInit_m := Minimality for GfieldInit Sort Prop.
Combined Scheme G_mutind from Gexpr_m, Gor_m, Gand_m, Grel_m, Gcalc_m, Gunary_m, Gmember_m,
  Gprimary_m, GexprList_m, GlistInit_m, GmapInit_m, GfieldInit_m.

Definition plain_tk (t : tk) : bool :=
  match t with TLParen | TLBracket | TLBrace | TRParen | TRBracket | TRBrace => false | _ => true end.
Definition flat (ts : list tk) : Prop := Forall (fun t => plain_tk t = true) ts.

Lemma opt_flat q : optq q \/ optdot q \/ optcomma q -> flat q.
Proof. intros [[-> | ->]|[[-> | ->]|[-> | ->]]]; repeat constructor. Qed.
Lemma binop_plain op n : relop_name op = Some n \/ mulop_name op = Some n \/ addop_name op = Some n -> plain_tk op = true.
Proof. destruct op; try reflexivity; intros [H|[H|H]]; discriminate H. Qed.
Lemma Gesc_plain id : Gesc id -> plain_tk id = true /\ closer id = true.
Proof. now destruct 1. Qed.
Lemma Gids_flat ids : Gids ids -> flat ids.
Proof. induction 1; repeat constructor. assumption. Qed.
Lemma Gliteral_flat l : Gliteral l -> flat l.
Proof. destruct 1; repeat constructor. Qed.
Lemma flat_repeat t n : plain_tk t = true -> flat (repeat t n).
Proof. intros H. induction n; cbn [repeat]; constructor; assumption. Qed.

(** A property of token lists that holds of the empty list and of a token that is no bracket,
    and is kept by concatenation and by putting a matching pair of brackets around, holds of
    everything derivable. *)
Section Closed.
  Variable P : list tk -> Prop.
  Hypothesis P_nil : P [].
  Hypothesis P_app : forall a b, P a -> P b -> P (a ++ b).
  Hypothesis P_plain : forall t, plain_tk t = true -> P [t].
  Hypothesis P_paren : forall a, P a -> P (TLParen :: a ++ [TRParen]).
  Hypothesis P_brack : forall a, P a -> P (TLBracket :: a ++ [TRBracket]).
  Hypothesis P_brace : forall a, P a -> P (TLBrace :: a ++ [TRBrace]).

  Lemma P_cons t a : plain_tk t = true -> P a -> P (t :: a).
  Proof. intros Ht Ha. apply (P_app [t] a); [now apply P_plain|exact Ha]. Qed.
  Lemma P_flat a : flat a -> P a.
  Proof. induction 1; [exact P_nil|now apply P_cons]. Qed.
  Lemma P_paren0 : P [TLParen; TRParen].
  Proof. exact (P_paren [] P_nil). Qed.
  Lemma P_brack2 a b : P a -> P b -> P (TLBracket :: a ++ b ++ [TRBracket]).
  Proof. intros Ha Hb. rewrite app_assoc. auto. Qed.
  Lemma P_brace2 a b : P a -> P b -> P (TLBrace :: a ++ b ++ [TRBrace]).
  Proof. intros Ha Hb. rewrite app_assoc. auto. Qed.

  Local Hint Resolve P_app P_cons P_flat P_paren0 P_paren P_brack P_brace P_brack2 P_brace2
    opt_flat binop_plain Gids_flat Gliteral_flat flat_repeat : gram.
  Local Hint Extern 1 (plain_tk _ = true) => reflexivity : gram.
  Local Hint Extern 1 (plain_tk ?id = true) =>
    match goal with H : Gesc id |- _ => exact (proj1 (Gesc_plain id H)) end : gram.

  Theorem G_closed :
    (forall ts, Gexpr ts -> P ts) /\ (forall ts, Gor ts -> P ts) /\ (forall ts, Gand ts -> P ts) /\
    (forall ts, Grel ts -> P ts) /\ (forall ts, Gcalc ts -> P ts) /\ (forall ts, Gunary ts -> P ts) /\
    (forall ts, Gmember ts -> P ts) /\ (forall ts, Gprimary ts -> P ts) /\
    (forall ts, GexprList ts -> P ts) /\ (forall ts, GlistInit ts -> P ts) /\
    (forall ts, GmapInit ts -> P ts) /\ (forall ts, GfieldInit ts -> P ts).
  Proof. apply G_mutind; intros; eauto 20 with gram. Qed.
End Closed.

Lemma balanced_app a b : balanced a -> balanced b -> balanced (a ++ b).
Proof. unfold balanced. rewrite !sumw_app. lia. Qed.
Lemma balanced_plain t : plain_tk t = true -> balanced [t].
Proof. destruct t; try discriminate; now repeat split. Qed.
Lemma balanced_pair l r a : balanced [l; r] -> balanced a -> balanced (l :: a ++ [r]).
Proof. unfold balanced. cbn [sumw]. rewrite !sumw_app. cbn [sumw]. lia. Qed.

Lemma ends_app a b : ends b -> ends (a ++ b).
Proof. intros (pre & t & -> & C). exists (a ++ pre), t. split; [now rewrite app_assoc|exact C]. Qed.
Lemma ends_cons x b : ends b -> ends (x :: b).
Proof. apply (ends_app [x]). Qed.
Lemma ends_one t : closer t = true -> ends [t].
Proof. intros C. exists [], t. now split. Qed.

#[local] Hint Resolve ends_app ends_cons ends_one : ends.
#[local] Hint Extern 1 (closer _ = true) => reflexivity : ends.
#[local] Hint Extern 1 (closer ?id = true) =>
  match goal with H : Gesc id |- _ => exact (proj2 (Gesc_plain id H)) end : ends.

Lemma Gids_ends ids : Gids ids -> ends ids.
Proof. induction 1; auto with ends. Qed.
Lemma Gliteral_ends l : Gliteral l -> ends l.
Proof. destruct 1; auto with ends. Qed.
#[local] Hint Resolve Gids_ends Gliteral_ends : ends.

(** the last piece of every rule ends in a closing token *)
Lemma G_ends :
  (forall ts, Gexpr ts -> ends ts) /\ (forall ts, Gor ts -> ends ts) /\ (forall ts, Gand ts -> ends ts) /\
  (forall ts, Grel ts -> ends ts) /\ (forall ts, Gcalc ts -> ends ts) /\ (forall ts, Gunary ts -> ends ts) /\
  (forall ts, Gmember ts -> ends ts) /\ (forall ts, Gprimary ts -> ends ts) /\
  (forall ts, GexprList ts -> ends ts) /\ (forall ts, GlistInit ts -> ends ts) /\
  (forall ts, GmapInit ts -> ends ts) /\ (forall ts, GfieldInit ts -> ends ts).
Proof. apply G_mutind; intros; auto 8 with ends. Qed.

Theorem derivable_shape ts : Gstart ts -> balanced ts /\ ends ts /\ ts <> [].
Proof.
  intros G. pose proof (proj1 G_ends ts G) as E. split; [|split; [exact E|]].
  - refine (proj1 (G_closed balanced _ balanced_app balanced_plain _ _ _) ts G);
      try (intros a; apply balanced_pair); now repeat split.
  - destruct E as (pre & t & -> & _). now destruct pre.
Qed.

(** [nested ts [] = true]: the brackets of [ts] form a well-nested word over the three bracket
    kinds (every closing one matches the most recent open one, none is left open). *)
Fixpoint nested (ts : list tk) (stack : list tk) : bool :=
  match ts with
  | [] => match stack with [] => true | _ => false end
  | t :: r =>
      match t with
      | TLParen | TLBracket | TLBrace => nested r (t :: stack)
      | TRParen => match stack with TLParen :: s => nested r s | _ => false end
      | TRBracket => match stack with TLBracket :: s => nested r s | _ => false end
      | TRBrace => match stack with TLBrace :: s => nested r s | _ => false end
      | _ => nested r stack
      end
  end.

(** a piece is neutral when reading it leaves any stack as it was *)
Definition neutral (ts : list tk) : Prop := forall rest stack, nested (ts ++ rest) stack = nested rest stack.

Lemma neutral_app a b : neutral a -> neutral b -> neutral (a ++ b).
Proof. intros Ha Hb r s. rewrite <- app_assoc, Ha, Hb. reflexivity. Qed.
Lemma neutral_plain t : plain_tk t = true -> neutral [t].
Proof. intros H r s. destruct t; try discriminate; reflexivity. Qed.
Lemma neutral_paren a : neutral a -> neutral (TLParen :: a ++ [TRParen]).
Proof. intros Ha r s. cbn [app nested]. rewrite <- app_assoc, Ha. reflexivity. Qed.
Lemma neutral_brack a : neutral a -> neutral (TLBracket :: a ++ [TRBracket]).
Proof. intros Ha r s. cbn [app nested]. rewrite <- app_assoc, Ha. reflexivity. Qed.
Lemma neutral_brace a : neutral a -> neutral (TLBrace :: a ++ [TRBrace]).
Proof. intros Ha r s. cbn [app nested]. rewrite <- app_assoc, Ha. reflexivity. Qed.

Theorem derivable_nested ts : Gstart ts -> nested ts [] = true.
Proof.
  intros G. enough (N : neutral ts) by (specialize (N [] []); now rewrite app_nil_r in N).
  refine (proj1 (G_closed neutral _ neutral_app neutral_plain neutral_paren neutral_brack neutral_brace) ts G).
  intros r s. reflexivity.
Qed.
