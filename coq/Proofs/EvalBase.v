(** Unfolding equations for [eval] (one per constructor, with the nested fixes named) and the
    induction principle for the nested inductive [expr]; then the level below: the extractors one
    parameter at a time, the loops written with [rbind], a case principle for the operators among
    the calls, and the kinds of outcome ([good]) all of these preserve. *)
From Cel.Model Require Import Eval.
From Cel.Proofs Require Import BaseFacts.

Section Named1.
  Variable ev1 : expr -> result.

  Fixpoint list_go (l : list expr) (acc : list value) (log : list event) : result :=
    match l with
    | [] => (Ok (VList (rev' acc)), log)
    | a :: l' =>
        match ev1 a with
        | (Ok v, la) => list_go l' (v :: acc) (log ++ la)
        | (Err x, la) => (Err x, log ++ la)
        | (Crash s, la) => (Crash s, log ++ la)
        end
    end.

  Fixpoint map_go (l : list (expr * expr)) (m : list (key * value)) (log : list event)
    : result :=
    match l with
    | [] => (Ok (VMap m), log)
    | (ke, ve) :: l' =>
        match ev1 ke with
        | (Ok kv, lk) =>
            match key_of_value kv with
            | None => (Err EInvalid, log ++ lk)
            | Some k =>
                match ev1 ve with
                | (Ok v, lv) => map_go l' (assoc_set k v m) (log ++ lk ++ lv)
                | (Err x, lv) => (Err x, log ++ lk ++ lv)
                | (Crash s, lv) => (Crash s, log ++ lk ++ lv)
                end
            end
        | (Err x, lk) => (Err x, log ++ lk)
        | (Crash s, lk) => (Crash s, log ++ lk)
        end
    end.

End Named1.

Section Named.
  Variable ev : ctx -> expr -> result.
  Variables (iv av : str) (cond step res : expr).

  Fixpoint comp_loop (its : list value) (c' : ctx)
           (log : list event) : result :=
    match its with
    | [] => let '(o, l) := ev c' res in (o, log ++ l)
    | it :: rest =>
        match ev c' cond with
        | (Ok vc, lc) =>
            if to_bool vc then
              let c'' := define c' iv it in
              match ev c'' step with
              | (Ok va, ls) => comp_loop rest (define c'' av va) (log ++ lc ++ ls)
              | (Err x, ls) => (Err x, log ++ lc ++ ls)
              | (Crash s, ls) => (Crash s, log ++ lc ++ ls)
              end
            else let '(o, l) := ev c' res in (o, log ++ lc ++ l)
        | (Err x, lc) => (Err x, log ++ lc)
        | (Crash s, lc) => (Crash s, log ++ lc)
        end
    end.
End Named.

(** What a call does once the results of its receiver ([rt]) and of its arguments ([rs]) are known;
    [call_general] is the call that is not an operator. *)
Definition call_general (c : ctx) (f : str) (rt : option result) (rs : list result)
           (args : list expr) : result :=
  match get_function c f with
  | None => ret (Err (EUndeclared f))
  | Some d =>
      match rt with
      | None => call_fn f d None rs args []
      | Some (Ok tv, lt) => call_fn f d (Some tv) rs args lt
      | Some (Err x, lt) => (Err x, lt)
      | Some (Crash s, lt) => (Crash s, lt)
      end
  end.

Definition call_dispatch (c : ctx) (f : str) (rt : option result) (rs : list result)
           (args : list expr) : result :=
  match rs with
  | [rc; rx; ry] =>
      if str_eqb f op_conditional
      then rbind rc (fun vc => if to_bool vc then rx else ry)
      else call_general c f rt rs args
  | [rl; rr] =>
      match binop_of_name f with
      | Some BOr => rbind rl (fun l => if to_bool l then ret (Ok l) else rr)
      | Some BAnd => rbind rl (fun l => if to_bool l
                                        then rbind rr (fun r => ret (Ok (VBool (to_bool r))))
                                        else ret (Ok (VBool false)))
      | Some o => rbind rl (fun l => rbind rr (fun r => ret (strict_binop o l r)))
      | None => call_general c f rt rs args
      end
  | [ra] =>
      match unop_of_name f with
      | Some o => rbind ra (fun v => ret (v_unop o v))
      | None => call_general c f rt rs args
      end
  | _ => call_general c f rt rs args
  end.

Lemma eval_args_map c args :
  (fix go (l : list expr) : list result :=
     match l with [] => [] | a :: l' => eval c a :: go l' end) args = map (eval c) args.
Proof. induction args as [|a l IH]; [reflexivity|]. cbn [map]. now rewrite <- IH. Qed.

Lemma eval_call c f target args :
  eval c (ECall f target args) =
  call_dispatch c f (option_map (eval c) target) (map (eval c) args) args.
Proof.
  rewrite <- eval_args_map.
  destruct target as [t|]; cbn [option_map]; unfold call_dispatch, call_general.
  - cbn [eval]. destruct (eval c t) as [[tv|x|s] lt]; reflexivity.
  - reflexivity.
Qed.

Lemma eval_lit c v : eval c (ELit v) = (Ok v, []).
Proof. reflexivity. Qed.
Lemma eval_ident c x : eval c (EIdent x) = (lookup c x, []).
Proof. reflexivity. Qed.
Lemma eval_select c o f t :
  eval c (ESelect o f t) =
  rbind (eval c o) (fun v => if t then ret (Ok (VBool (has_field v f))) else ret (member c v f)).
Proof. reflexivity. Qed.
Lemma eval_list c es : eval c (EList es) = list_go (eval c) es [] [].
Proof. reflexivity. Qed.
Lemma eval_map c es : eval c (EMap es) = map_go (eval c) es [] [].
Proof. reflexivity. Qed.
Lemma eval_struct c t fs : eval c (EStruct t fs) = (Err EInvalid, []).
Proof. reflexivity. Qed.
Lemma eval_comp c range iv av init cond step res :
  eval c (EComp range iv av init cond step res) =
  rbind (eval c init) (fun vinit =>
  rbind (eval c range) (fun vr =>
    match range_items vr with
    | None => ret (Err EInvalid)
    | Some items => comp_loop eval iv av cond step res items (define (push c) av vinit) []
    end)).
Proof. reflexivity. Qed.

Section ExprInd.
  Variable P : expr -> Prop.
  Hypothesis Hunspec : P EUnspec.
  Hypothesis Hlit : forall v, P (ELit v).
  Hypothesis Hident : forall x, P (EIdent x).
  Hypothesis Hcall : forall f target args,
      (forall t, target = Some t -> P t) -> Forall P args -> P (ECall f target args).
  Hypothesis Hselect : forall o f t, P o -> P (ESelect o f t).
  Hypothesis Hlist : forall es, Forall P es -> P (EList es).
  Hypothesis Hmap : forall es, Forall (fun kv => P (fst kv) /\ P (snd kv)) es -> P (EMap es).
  Hypothesis Hstruct : forall t fs, Forall (fun fv => P (snd fv)) fs -> P (EStruct t fs).
  Hypothesis Hcomp : forall r iv av i c s res,
      P r -> P i -> P c -> P s -> P res -> P (EComp r iv av i c s res).

  Fixpoint expr_ind' (e : expr) : P e :=
    match e with
    | EUnspec => Hunspec
    | ELit v => Hlit v
    | EIdent x => Hident x
    | ECall f target args =>
        Hcall f target args
          (match target as t0 return forall t, t0 = Some t -> P t with
           | Some t' => fun t H => match H in _ = y return match y with Some z => P z | None => True end
                                   with eq_refl => expr_ind' t' end
           | None => fun t H => match H in _ = y return match y with Some z => P z | None => True end
                                with eq_refl => I end
           end)
          ((fix go (l : list expr) : Forall P l :=
              match l with
              | [] => Forall_nil _
              | a :: l' => Forall_cons _ (expr_ind' a) (go l')
              end) args)
    | ESelect o f t => Hselect o f t (expr_ind' o)
    | EList es =>
        Hlist es ((fix go (l : list expr) : Forall P l :=
                     match l with
                     | [] => Forall_nil _
                     | a :: l' => Forall_cons _ (expr_ind' a) (go l')
                     end) es)
    | EMap es =>
        Hmap es ((fix go (l : list (expr * expr)) : Forall (fun kv => P (fst kv) /\ P (snd kv)) l :=
                    match l with
                    | [] => Forall_nil _
                    | (k, v) :: l' => Forall_cons (k, v) (conj (expr_ind' k) (expr_ind' v)) (go l')
                    end) es)
    | EStruct t fs =>
        Hstruct t fs ((fix go (l : list (str * expr)) : Forall (fun fv => P (snd fv)) l :=
                         match l with
                         | [] => Forall_nil _
                         | (f, v) :: l' => Forall_cons (f, v) (expr_ind' v) (go l')
                         end) fs)
    | EComp r iv av i c s res =>
        Hcomp r iv av i c s res (expr_ind' r) (expr_ind' i) (expr_ind' c) (expr_ind' s)
              (expr_ind' res)
    end.
End ExprInd.

Lemma from_value_cases t opt v :
  from_value t opt v = Ok v /\ (has_vty t v = true \/ opt = true /\ v = VNull) \/
  from_value t opt v = Err EInvalid.
Proof.
  unfold from_value. destruct (has_vty t v); [auto|].
  destruct opt; [destruct v|]; auto.
Qed.

(** The Arguments extractor resolves every argument in order. *)
Fixpoint all_args (rs' : list result) (vs : list value) (lg : list event)
  : (list value * list event) + (outcome (list value) * list event) :=
  match rs' with
  | [] => inl (vs, lg)
  | (r, l) :: rs'' =>
      match r with
      | Ok v => all_args rs'' (v :: vs) (lg ++ l)
      | Err c => inr (Err c, lg ++ l)
      | Crash s => inr (Crash s, lg ++ l)
      end
  end.

Lemma extract_xargs ps this rs es idx acc log :
  extract (XArgs :: ps) this rs es idx acc log =
  match all_args rs [] log with
  | inl (vs, lg) => extract ps this rs es idx (VList (rev' vs) :: acc) lg
  | inr e => e
  end.
Proof.
  cbn [extract]. generalize (extract ps this rs es idx) as k, (@nil value) as vs, log as lg.
  induction rs as [|[r l0] rs' IHr]; intros lg vs k; [reflexivity|].
  cbn [all_args]. destruct r; [apply IHr|reflexivity|reflexivity].
Qed.

(** What one extractor does ([xstep]): the value it hands over, the next argument index and the
    log so far - or the failure that ends the call. *)
Definition xstep_result : Type := (value * nat * list event) + (outcome (list value) * list event).

(** Its three forms below [XArgs] and [XIdent]: convert a value to the parameter type ([xconv]);
    take the argument at [idx] and convert it ([xpos]); take the receiver if the call has one,
    the next argument otherwise ([xrecv]). *)
Definition xconv (t : vty) (opt : bool) (v : value) (idx : nat) (log : list event) : xstep_result :=
  match from_value t opt v with
  | Ok x => inl (x, idx, log)
  | Err c => inr (Err c, log)
  | Crash s => inr (Crash s, log)
  end.

Definition xpos (t : vty) (opt : bool) (rs : list result) (idx : nat) (log : list event)
  : xstep_result :=
  match nth_error rs idx with
  | None => inr (Err EArgCount, log)
  | Some (Ok v, l) => xconv t opt v (S idx) (log ++ l)
  | Some (Err c, l) => inr (Err c, log ++ l)
  | Some (Crash s, l) => inr (Crash s, log ++ l)
  end.

Definition xrecv (t : vty) (opt : bool) (this : option value) (rs : list result) (idx : nat)
           (log : list event) : xstep_result :=
  match this with Some v => xconv t opt v idx log | None => xpos t opt rs idx log end.

Definition xstep (p : extractor) (this : option value) (rs : list result) (es : list expr)
           (idx : nat) (log : list event) : xstep_result :=
  match p with
  | XThis t => xrecv t false this rs idx log
  | XThisOpt t => xrecv t true this rs idx log
  | XArg t => xpos t false rs idx log
  | XArgOpt t => xpos t true rs idx log
  | XArgs => match all_args rs [] log with
             | inl (vs, lg) => inl (VList (rev' vs), idx, lg)
             | inr e => inr e
             end
  | XIdent => match nth_error es idx with
              | None => inr (Err EArgCount, log)
              | Some (EIdent x) => inl (VStr x, S idx, log)
              | Some _ => inr (Err EInvalid, log)
              end
  | XExpr => match nth_error es idx with
             | None => inr (Err EArgCount, log)
             | Some _ => inl (VNull, S idx, log)
             end
  end.

Lemma extract_cons p ps this rs es idx acc log :
  extract (p :: ps) this rs es idx acc log =
  match xstep p this rs es idx log with
  | inl (x, idx', log') => extract ps this rs es idx' (x :: acc) log'
  | inr e => e
  end.
Proof.
  destruct p; [..|rewrite extract_xargs| |]; cbn [extract xstep]; unfold xrecv, xpos, xconv.
  1, 2: destruct this as [v|]; [destruct (from_value _ _ v); reflexivity|].
  1-4: destruct (nth_error rs idx) as [[[v|c|s] l]|]; try reflexivity;
    destruct (from_value _ _ v); reflexivity.
  - destruct (all_args rs [] log) as [[vs lg]|e]; reflexivity.
  - destruct (nth_error es idx) as [[]|]; reflexivity.
  - destruct (nth_error es idx); reflexivity.
Qed.

(** What the extractors hand to a function body, per parameter. *)
Definition shape (p : extractor) (v : value) : Prop :=
  match p with
  | XThis t | XArg t => has_vty t v = true
  | XThisOpt t | XArgOpt t => has_vty t v = true \/ v = VNull
  | XArgs => match v with VList _ => True | _ => False end
  | XIdent => match v with VStr _ => True | _ => False end
  | XExpr => v = VNull
  end.

Fixpoint shapes (ps : list extractor) (vs : list value) : Prop :=
  match ps, vs with
  | [], [] => True
  | p :: ps', v :: vs' => shape p v /\ shapes ps' vs'
  | _, _ => False
  end.

(** [o] is a failure that one of the results [rs] has, or one of the two that the extractors
    raise themselves. *)
Definition xfail {A} (rs : list result) (o : outcome A) : Prop :=
  match o with
  | Ok _ => False
  | Err c => c = EArgCount \/ c = EInvalid \/ exists l, In (Err c, l) rs
  | Crash s => exists l, In (Crash s, l) rs
  end.

Lemma xfail_cons {A} r rs (o : outcome A) : xfail rs o -> xfail (r :: rs) o.
Proof.
  destruct o as [x|c|s]; cbn [xfail]; [auto| |].
  - intros [H|[H|[l H]]]; [auto..|]. right; right. exists l. now right.
  - intros [l H]. exists l. now right.
Qed.

Lemma all_args_fail rs : forall vs lg o l, all_args rs vs lg = inr (o, l) -> xfail rs o.
Proof.
  induction rs as [|[r l0] rs IH]; intros vs lg o l H; [discriminate|].
  cbn [all_args] in H. destruct r as [v|c|s].
  - exact (xfail_cons _ _ _ (IH _ _ _ _ H)).
  - injection H as <- _. right; right. exists l0. now left.
  - injection H as <- _. exists l0. now left.
Qed.

Section XStep.
  Variables (t : vty) (opt : bool) (this : option value) (rs : list result).

  Lemma xconv_inl v i l x i' l' : xconv t opt v i l = inl (x, i', l') ->
    has_vty t x = true \/ opt = true /\ x = VNull.
  Proof.
    unfold xconv. destruct (from_value_cases t opt v) as [[-> H]| ->]; [|discriminate].
    intros [= <- _ _]. exact H.
  Qed.

  Lemma xconv_inr v i l o l' : xconv t opt v i l = inr (o, l') -> xfail rs o.
  Proof.
    unfold xconv. destruct (from_value_cases t opt v) as [[-> _]| ->]; [discriminate|].
    intros [= <- _]. right. now left.
  Qed.

  Lemma xpos_inl i l x i' l' : xpos t opt rs i l = inl (x, i', l') ->
    has_vty t x = true \/ opt = true /\ x = VNull.
  Proof.
    unfold xpos. destruct (nth_error rs i) as [[[v|c|s] l0]|]; try discriminate. apply xconv_inl.
  Qed.

  Lemma xpos_inr i l o l' : xpos t opt rs i l = inr (o, l') -> xfail rs o.
  Proof.
    unfold xpos. destruct (nth_error rs i) as [[[v|c|s] l0]|] eqn:E;
      [apply xconv_inr|apply nth_error_In in E; intros [= <- _]..|intros [= <- _]; now left].
    - right; right. now exists l0.
    - now exists l0.
  Qed.

  Lemma xrecv_inl i l x i' l' : xrecv t opt this rs i l = inl (x, i', l') ->
    has_vty t x = true \/ opt = true /\ x = VNull.
  Proof. destruct this; [apply xconv_inl|apply xpos_inl]. Qed.

  Lemma xrecv_inr i l o l' : xrecv t opt this rs i l = inr (o, l') -> xfail rs o.
  Proof. destruct this; [apply xconv_inr|apply xpos_inr]. Qed.
End XStep.

Lemma xstep_shape p this rs es idx log x idx' log' :
  xstep p this rs es idx log = inl (x, idx', log') -> shape p x.
Proof.
  destruct p; cbn [xstep shape]; intros H.
  - apply xrecv_inl in H as [H|[[=] _]]. exact H.
  - apply xrecv_inl in H as [H|[_ H]]; auto.
  - apply xpos_inl in H as [H|[[=] _]]. exact H.
  - apply xpos_inl in H as [H|[_ H]]; auto.
  - destruct (all_args rs [] log) as [[vs lg]|e]; [|discriminate]. now injection H as <- _ _.
  - destruct (nth_error es idx) as [[]|]; try discriminate. now injection H as <- _ _.
  - destruct (nth_error es idx); [|discriminate]. now injection H as <- _ _.
Qed.

Lemma xstep_fail p this rs es idx log o l :
  xstep p this rs es idx log = inr (o, l) -> xfail rs o.
Proof.
  destruct p; cbn [xstep]; [apply xrecv_inr..|apply xpos_inr|apply xpos_inr| | |].
  - destruct (all_args rs [] log) as [[vs lg]|e] eqn:E; [discriminate|].
    intros [= ->]. exact (all_args_fail _ _ _ _ _ E).
  - destruct (nth_error es idx) as [[]|]; intros [= <- _]; cbn; auto.
  - destruct (nth_error es idx); [discriminate|]. intros [= <- _]. now left.
Qed.

Lemma extract_shape ps : forall this rs es idx acc log xs l,
  extract ps this rs es idx acc log = (Ok xs, l) ->
  exists ys, xs = rev acc ++ ys /\ shapes ps ys.
Proof.
  induction ps as [|p ps IH]; intros this rs es idx acc log xs l H.
  - injection H as <- _. exists []. now rewrite rev'_rev, app_nil_r.
  - rewrite extract_cons in H.
    destruct (xstep p this rs es idx log) as [[[x idx'] log']|[o l']] eqn:E.
    + apply IH in H as (ys & -> & F). exists (x :: ys). cbn [rev]. rewrite <- app_assoc.
      split; [reflexivity|]. split; [exact (xstep_shape _ _ _ _ _ _ _ _ _ E)|exact F].
    + apply xstep_fail in E. injection H as -> _. destruct E.
Qed.

Lemma extract_fail ps : forall this rs es idx acc log o l,
  extract ps this rs es idx acc log = (o, l) -> (exists xs, o = Ok xs) \/ xfail rs o.
Proof.
  induction ps as [|p ps IH]; intros this rs es idx acc log o l H.
  - injection H as <- _. eauto.
  - rewrite extract_cons in H.
    destruct (xstep p this rs es idx log) as [[[x idx'] log']|[o' l']] eqn:E.
    + exact (IH _ _ _ _ _ _ _ _ H).
    + injection H as <- _. right. exact (xstep_fail _ _ _ _ _ _ _ _ E).
Qed.

(** The kind of outcome that every statement about "what can go wrong" is an instance of: any
    value, an error whose class satisfies [Pe], a crash whose code satisfies [Pc]. *)
Definition good {A} (Pe : errclass -> Prop) (Pc : N -> Prop) (o : outcome A) : Prop :=
  match o with Ok _ => True | Err c => Pe c | Crash s => Pc s end.

Lemma good_weaken {A} (Pe Pe' : errclass -> Prop) (Pc Pc' : N -> Prop) (o : outcome A) :
  (forall c, Pe c -> Pe' c) -> (forall s, Pc s -> Pc' s) -> good Pe Pc o -> good Pe' Pc' o.
Proof. destruct o; cbn [good]; auto. Qed.

(** The value primitives return a value or an error other than "undeclared reference". *)
Definition ordinary (c : errclass) : Prop := match c with EUndeclared _ => False | _ => True end.
Definition tame {A} (o : outcome A) : Prop := good ordinary (fun _ => False) o.

Lemma tame_good {A} (Pe : errclass -> Prop) (Pc : N -> Prop) : (forall c, ordinary c -> Pe c) ->
  forall o : outcome A, tame o -> good Pe Pc o.
Proof. intros H o. apply good_weaken; [exact H|intros _ []]. Qed.

Lemma rbind_nil v (k : value -> result) : rbind (Ok v, []) k = k v.
Proof. unfold rbind. destruct (k v); reflexivity. Qed.

Lemma rbind_ret o k :
  rbind (ret o) k = match o with Ok v => k v | Err e => ret (Err e) | Crash s => ret (Crash s) end.
Proof. destruct o; [apply rbind_nil|reflexivity|reflexivity]. Qed.

Lemma rbind_pure o k K : (forall v, k v = ret (K v)) -> rbind (ret o) k = ret (let! v := o in K v).
Proof. intros H. rewrite rbind_ret. destruct o; [apply H|reflexivity|reflexivity]. Qed.

(** The log a loop is started with is only a prefix of its result. *)
Definition prepend (log : list event) (r : result) : result := let '(o, l) := r in (o, log ++ l).

Lemma prepend_nil r : prepend [] r = r.
Proof. now destruct r. Qed.

Lemma prepend_app l1 l2 r : prepend (l1 ++ l2) r = prepend l1 (prepend l2 r).
Proof. destruct r. cbn [prepend]. now rewrite app_assoc. Qed.

Lemma rbind_ok v l k : rbind (Ok v, l) k = prepend l (k v).
Proof. reflexivity. Qed.

Lemma rbind_ext r (k1 k2 : value -> result) : (forall v, k1 v = k2 v) -> rbind r k1 = rbind r k2.
Proof. intros H. destruct r as [[v|e|s] l]; cbn [rbind]; [now rewrite H|reflexivity|reflexivity]. Qed.

Lemma range_fold_ext r (k1 k2 : list value -> result) : (forall items, k1 items = k2 items) ->
  rbind r (fun vr => match range_items vr with None => ret (Err EInvalid) | Some items => k1 items end) =
  rbind r (fun vr => match range_items vr with None => ret (Err EInvalid) | Some items => k2 items end).
Proof.
  intros H. apply rbind_ext. intros vr. destruct (range_items vr) as [items|]; [now rewrite H|reflexivity].
Qed.

Lemma list_go_shift ev l : forall acc log, list_go ev l acc log = prepend log (list_go ev l acc []).
Proof.
  induction l as [|a l IH]; intros acc log; cbn [list_go prepend app]; [now rewrite app_nil_r|].
  destruct (ev a) as [[v|x|s] la]; [|reflexivity..].
  now rewrite (IH _ (log ++ la)), (IH _ la), prepend_app.
Qed.

Lemma list_go_cons ev a l acc :
  list_go ev (a :: l) acc [] = rbind (ev a) (fun v => list_go ev l (v :: acc) []).
Proof.
  cbn [list_go app]. destruct (ev a) as [[v|x|s] la]; [|reflexivity..]. apply list_go_shift.
Qed.

Lemma list_go_ext ev1 ev2 l : Forall (fun a => ev1 a = ev2 a) l ->
  forall acc, list_go ev1 l acc [] = list_go ev2 l acc [].
Proof.
  induction 1 as [|a l Ha _ IH]; intros acc; [reflexivity|].
  rewrite !list_go_cons, Ha. apply rbind_ext. intros v. apply IH.
Qed.

Lemma map_go_shift ev l : forall m log, map_go ev l m log = prepend log (map_go ev l m []).
Proof.
  induction l as [|[k v] l IH]; intros m log; cbn [map_go prepend app]; [now rewrite app_nil_r|].
  destruct (ev k) as [[kv|x|s] lk]; [|reflexivity..].
  destruct (key_of_value kv) as [k'|]; [|reflexivity].
  destruct (ev v) as [[vv|x|s] lv]; [|reflexivity..].
  now rewrite (IH _ (log ++ lk ++ lv)), (IH _ (lk ++ lv)), prepend_app.
Qed.

Lemma map_go_cons ev k v l m :
  map_go ev ((k, v) :: l) m [] =
  rbind (ev k) (fun kv =>
    match key_of_value kv with
    | None => ret (Err EInvalid)
    | Some k' => rbind (ev v) (fun vv => map_go ev l (assoc_set k' vv m) [])
    end).
Proof.
  cbn [map_go app]. destruct (ev k) as [[kv|x|s] lk]; [|reflexivity..]. rewrite rbind_ok.
  destruct (key_of_value kv) as [k'|]; [|cbn; now rewrite app_nil_r].
  destruct (ev v) as [[vv|x|s] lv]; [|reflexivity..].
  now rewrite rbind_ok, map_go_shift, prepend_app.
Qed.

Lemma map_go_ext ev1 ev2 l :
  Forall (fun kv => ev1 (fst kv) = ev2 (fst kv) /\ ev1 (snd kv) = ev2 (snd kv)) l ->
  forall m, map_go ev1 l m [] = map_go ev2 l m [].
Proof.
  induction 1 as [|[k v] l [Hk Hv] _ IH]; intros m; [reflexivity|]. cbn [fst snd] in *.
  rewrite !map_go_cons, Hk, Hv. apply rbind_ext. intros kv.
  destruct (key_of_value kv); [|reflexivity]. apply rbind_ext. intros vv. apply IH.
Qed.

Section Loop.
  Variables (iv av : str) (cond step res : expr).
  Let loop := comp_loop eval iv av cond step res.

  Lemma comp_loop_shift its : forall c log, loop its c log = prepend log (loop its c []).
  Proof.
    induction its as [|it rest IH]; intros c log; cbn [loop comp_loop app];
      [destruct (eval c res); reflexivity|].
    destruct (eval c cond) as [[vc|x|s] lc]; [|cbn [prepend]; now rewrite ?app_nil_r..].
    destruct (to_bool vc); [|destruct (eval c res); reflexivity].
    destruct (eval (define c iv it) step) as [[va|x|s] ls]; [|reflexivity..].
    fold loop. now rewrite (IH _ (log ++ lc ++ ls)), (IH _ (lc ++ ls)), prepend_app.
  Qed.

  Lemma comp_loop_nil c : loop [] c [] = eval c res.
  Proof. apply prepend_nil. Qed.

  Lemma comp_loop_cons it rest c :
    loop (it :: rest) c [] =
    rbind (eval c cond) (fun vc =>
      if to_bool vc
      then rbind (eval (define c iv it) step) (fun va => loop rest (define (define c iv it) av va) [])
      else eval c res).
  Proof.
    cbn [loop comp_loop app]. destruct (eval c cond) as [[vc|x|s] lc]; [|reflexivity..].
    rewrite rbind_ok. destruct (to_bool vc); [|reflexivity].
    destruct (eval (define c iv it) step) as [[va|x|s] ls]; [|reflexivity..].
    fold loop. now rewrite rbind_ok, comp_loop_shift, prepend_app.
  Qed.
End Loop.

Section Good.
  Variables (Pe : errclass -> Prop) (Pc : N -> Prop).
  Let gd (r : result) : Prop := good Pe Pc (fst r).

  Lemma rbind_good r k : gd r -> (forall v, gd (k v)) -> gd (rbind r k).
  Proof.
    intros Hr Hk. destruct r as [[v|c|s] l]; [|exact Hr..].
    specialize (Hk v). rewrite rbind_ok. now destruct (k v).
  Qed.

  Lemma list_go_good ev l : Forall (fun a => gd (ev a)) l -> forall acc, gd (list_go ev l acc []).
  Proof.
    induction 1 as [|a l Ha _ IH]; intros acc; [exact I|].
    rewrite list_go_cons. apply rbind_good; [exact Ha|]. intros v. apply IH.
  Qed.

  Lemma map_go_good ev l : Pe EInvalid ->
    Forall (fun kv => gd (ev (fst kv)) /\ gd (ev (snd kv))) l -> forall m, gd (map_go ev l m []).
  Proof.
    intros Hi. induction 1 as [|[k v] l [Hk Hv] _ IH]; intros m; [exact I|].
    rewrite map_go_cons. apply rbind_good; [exact Hk|]. intros kv.
    destruct (key_of_value kv); [|exact Hi]. apply rbind_good; [exact Hv|]. intros vv. apply IH.
  Qed.

  (** [Inv]: what the loop keeps of the context it runs in. *)
  Lemma comp_loop_good (Inv : ctx -> Prop) iv av cond step res :
    (forall c, Inv c -> gd (eval c cond)) ->
    (forall c it, Inv c -> gd (eval (define c iv it) step)) ->
    (forall c, Inv c -> gd (eval c res)) ->
    (forall c it va, Inv c -> Inv (define (define c iv it) av va)) ->
    forall its c, Inv c -> gd (comp_loop eval iv av cond step res its c []).
  Proof.
    intros Hc Hs Hr Hi. induction its as [|it rest IH]; intros c HI.
    - rewrite comp_loop_nil. now apply Hr.
    - rewrite comp_loop_cons. apply rbind_good; [now apply Hc|]. intros vc.
      destruct (to_bool vc); [|now apply Hr].
      apply rbind_good; [now apply Hs|]. intros va. apply IH. now apply Hi.
  Qed.

  Lemma extract_good ps this rs es idx acc log : Pe EArgCount -> Pe EInvalid ->
    Forall gd rs -> good Pe Pc (fst (extract ps this rs es idx acc log)).
  Proof.
    intros H1 H2 Hrs. rewrite Forall_forall in Hrs.
    destruct (extract ps this rs es idx acc log) as [o l] eqn:E.
    destruct (extract_fail _ _ _ _ _ _ _ _ _ E) as [[xs ->]|F]; [exact I|].
    destruct o as [xs|c|s]; cbn [fst good xfail] in *.
    - destruct F.
    - destruct F as [->|[->|[l0 F]]]; [exact H1|exact H2|exact (Hrs _ F)].
    - destruct F as [l0 F]. exact (Hrs _ F).
  Qed.
End Good.

Lemma call_dispatch_cases (Q : result -> Prop) c f rt rs args :
  Q (call_general c f rt rs args) ->
  (forall o ra, rs = [ra] -> unop_of_name f = Some o -> Q (rbind ra (fun v => ret (v_unop o v)))) ->
  (forall rl rr, rs = [rl; rr] -> binop_of_name f = Some BOr ->
     Q (rbind rl (fun l => if to_bool l then ret (Ok l) else rr))) ->
  (forall rl rr, rs = [rl; rr] -> binop_of_name f = Some BAnd ->
     Q (rbind rl (fun l => if to_bool l then rbind rr (fun r => ret (Ok (VBool (to_bool r))))
                           else ret (Ok (VBool false))))) ->
  (forall o rl rr, rs = [rl; rr] -> binop_of_name f = Some o -> o <> BOr -> o <> BAnd ->
     Q (rbind rl (fun l => rbind rr (fun r => ret (strict_binop o l r))))) ->
  (forall rc rx ry, rs = [rc; rx; ry] -> str_eqb f op_conditional = true ->
     Q (rbind rc (fun vc => if to_bool vc then rx else ry))) ->
  Q (call_dispatch c f rt rs args).
Proof.
  intros G U O A S C. unfold call_dispatch.
  destruct rs as [|r1 [|r2 [|r3 [|r4 rs']]]]; try exact G.
  - destruct (unop_of_name f) as [o|] eqn:E; [now apply U|exact G].
  - destruct (binop_of_name f) as [o|] eqn:E; [|exact G].
    destruct o; try (now apply S); [now apply O|now apply A].
  - destruct (str_eqb f op_conditional) eqn:E; [now apply C|exact G].
Qed.

Lemma eval_unop c f o a : unop_of_name f = Some o ->
  eval c (ECall f None [a]) = rbind (eval c a) (fun v => ret (v_unop o v)).
Proof. intros H. rewrite eval_call. cbn [map call_dispatch]. now rewrite H. Qed.

Lemma eval_strict c f o a b : binop_of_name f = Some o -> o <> BOr -> o <> BAnd ->
  eval c (ECall f None [a; b]) =
  rbind (eval c a) (fun l => rbind (eval c b) (fun r => ret (strict_binop o l r))).
Proof.
  intros H H1 H2. rewrite eval_call. cbn [map call_dispatch]. rewrite H.
  destruct o; try reflexivity; contradiction.
Qed.

Lemma get_function_Forall (Q : fdef -> Prop) c f d :
  Forall (fun nd => Q (snd nd)) (funs c) -> get_function c f = Some d -> Q d.
Proof.
  unfold get_function. induction 1 as [|[n d'] l H1 _ IH]; cbn [str_assoc]; [discriminate|].
  destruct (str_eqb f n); [intros [= <-]; exact H1|exact IH].
Qed.
