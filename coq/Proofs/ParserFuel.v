(** C04: the round trip with the fuel [compile] itself uses.  The parse of a rendered tree is
    established for all sufficiently large fuel (ParserRoundtrip); more fuel never changes an
    answer (ParserMono) and the fuel of [parse_tokens] is never exhausted (ParserTotal), so it
    is the answer of [parse_tokens]. *)
From Cel.Model Require Import Surface.
From Cel.Proofs Require Import ParserRoundtrip ParserMono.

Theorem parse_tokens_roundtrip t : wf_st t -> parse_tokens (raw t) = CExpr (ast t).
Proof.
  intros W. apply parse_tokens_of_ev. destruct (parse_roundtrip t W) as [n H]. exists n. exact H.
Qed.
