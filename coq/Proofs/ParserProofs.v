(** C01: positions reported for byte offsets lie inside the source; the lexer rejects
    characters no token rule starts with. *)
From Cel.Model Require Import Lexer Position.
From Cel.Proofs Require Import BaseFacts LexerTotal.
From Coq Require Import Lia.

Lemma nchars_app a b : nchars (a ++ b) = (nchars a + nchars b)%nat.
Proof. unfold nchars. now rewrite filter_app, app_length. Qed.
Lemma nchars_le bs : (nchars bs <= length bs)%nat.
Proof. unfold nchars. induction bs as [|b bs IH]; cbn [filter length]; [lia|]. destruct (negb (is_cont b)); cbn [length]; lia. Qed.

(** the column of an offset inside a line: at most the line's character count when the offset
    is the start of a character, and never more than one past it *)
Lemma col_in_line p k : (k < length p)%nat ->
  (nchars (firstn k p) + 1 <= nchars p + 1)%nat /\
  (is_cont (nth k p 0%N) = false -> (nchars (firstn k p) + 1 <= nchars p)%nat).
Proof.
  intros Hk. assert (E0 : nchars p = (nchars (firstn k p) + nchars (skipn k p))%nat)
    by (rewrite <- nchars_app, firstn_skipn; reflexivity).
  split; [lia|].
  intros Hc. destruct (skipn k p) as [|b r] eqn:E.
  - pose proof (skipn_length k p) as L. rewrite E in L. cbn in L. lia.
  - assert (Hb : nth k p 0%N = b).
    { rewrite <- (firstn_skipn k p) at 1. rewrite app_nth2 by (rewrite firstn_length; lia).
      rewrite firstn_length, E. replace (k - Nat.min k (length p))%nat with O by lia. reflexivity. }
    rewrite Hb in Hc. assert (1 <= nchars (b :: r))%nat by (unfold nchars; cbn [filter]; rewrite Hc; cbn [negb length]; lia).
    lia.
Qed.

Lemma pos_in_bounds pieces : forall start offset line l c,
  (offset <= start)%nat ->
  pos_in pieces start offset line = Some (l, c) ->
  (line < l <= line + length pieces)%nat /\
  exists piece k, nth_error pieces (l - line - 1) = Some piece /\ (k < length piece)%nat /\
                  c = (nchars (firstn k piece) + 1)%nat.
Proof.
  induction pieces as [|p rest IH]; intros start offset line l c Hle; cbn [pos_in]; [discriminate|].
  destruct (Nat.ltb_spec start (offset + length p)) as [H|H].
  - intros [= <- <-]. split; [cbn; lia|].
    exists p, (start - offset)%nat. replace (S line - line - 1)%nat with O by lia. split; [reflexivity|]. split; [lia|reflexivity].
  - intros Hp. destruct (IH start (offset + length p)%nat (S line) l c H Hp) as (H1 & piece & k & H2 & H3).
    split; [cbn; lia|]. exists piece, k. split; [|assumption].
    replace (l - line - 1)%nat with (S (l - S line - 1)) by lia. exact H2.
Qed.

Lemma pos_in_total pieces : forall start offset line,
  (offset <= start)%nat ->
  (start < offset + list_sum (map (@length N) pieces))%nat ->
  pos_in pieces start offset line <> None.
Proof.
  induction pieces as [|p rest IH]; intros start offset line Hle H.
  - cbn in H. lia.
  - cbn [pos_in].
    change (list_sum (map (@length N) (p :: rest)))
      with (length p + list_sum (map (@length N) rest))%nat in H.
    destruct (Nat.ltb_spec start (offset + length p)); [intros E; discriminate E|].
    apply IH; lia.
Qed.

Lemma split_inclusive_length s : forall cur,
  list_sum (map (@length N) (split_inclusive s cur)) = (length s + length cur)%nat.
Proof.
  induction s as [|c r IH]; intros cur; cbn [split_inclusive].
  - destruct cur as [|x cur]; [reflexivity|].
    change (list_sum (map (@length N) [rev' (x :: cur)])) with (length (rev' (x :: cur)) + 0)%nat.
    rewrite rev'_length. cbn [length]. lia.
  - destruct (c =? 10)%N.
    + change (list_sum (map (@length N) (rev' (c :: cur) :: split_inclusive r [])))
        with (length (rev' (c :: cur)) + list_sum (map (@length N) (split_inclusive r [])))%nat.
      rewrite IH, rev'_length. cbn [length]. lia.
    + rewrite IH. cbn [length]. lia.
Qed.

(** Every offset inside the source has a position, and every position reported lies on an
    existing line, at a column - counted in characters - between 1 and one past that line's
    character count (newline included).  The last conjunct gives "at most the character count"
    for some byte index [k] of the line that is no continuation byte; the statement ties [k]
    neither to the offset nor to the column (the proof takes the offset's index, [col_in_line]). *)
Lemma pos_for_in_source src start :
  ((start < length src)%nat -> pos_for src start <> None) /\
  forall l c, pos_for src start = Some (l, c) ->
    (1 <= l <= length (split_inclusive src []))%nat /\
    exists piece k, nth_error (split_inclusive src []) (l - 1) = Some piece /\ (k < length piece)%nat /\
                    (1 <= c <= nchars piece + 1)%nat /\
                    (is_cont (nth k piece 0%N) = false -> (c <= nchars piece)%nat).
Proof.
  split.
  - intros H. apply pos_in_total; [lia|]. rewrite split_inclusive_length. lia.
  - intros l c H. destruct (pos_in_bounds _ start 0 0 l c ltac:(lia) H) as (H1 & piece & k & H2 & H3 & ->).
    split; [lia|]. exists piece, k. split; [now replace (l - 1)%nat with (l - 0 - 1)%nat by lia|]. split; [exact H3|].
    destruct (col_in_line piece k H3) as [A B]. split; [lia|exact B].
Qed.

(** A character no token rule can start with: [lex_one] has no answer there. *)
Definition unknown_start (c : N) : bool :=
  negb (is_ws c || is_ident_start c || is_digit c ||
        existsb (N.eqb c) [34; 39; 96; 61; 33; 60; 62; 38; 124; 47; 91; 93; 123; 125; 40; 41;
                           46; 44; 45; 63; 58; 43; 42; 37]%N).

Lemma lex_one_unknown c r : unknown_start c = true -> lex_one (c :: r) = None.
Proof.
  unfold unknown_start. rewrite negb_true_iff, !orb_false_iff. intros [[[Hws Hid] Hd] Hop].
  cbn [existsb] in Hop. rewrite !orb_false_iff in Hop.
  repeat match goal with H : _ /\ _ |- _ => destruct H end.
  assert (Hl : is_letter c = false) by (unfold is_ident_start in Hid; now apply orb_false_iff in Hid as [Hl _]).
  destruct (no_literal_head c r) as [Hb Hs]; [apply orb_false_iff; split; assumption|exact Hl|].
  assert (Hn : num_tok (c :: r) = None).
  { unfold num_tok. cbn [span]. rewrite Hd. now replace (c =? 46)%N with false by (symmetry; assumption). }
  unfold lex_one. rewrite Hb, Hs, Hws, Hid, Hn.
  (* every remaining test compares [c] with one of the characters excluded, once they are written as numbers *)
  repeat match goal with |- context [ch ?s] => let v := eval cbv in (ch s) in change (ch s) with v end.
  repeat match goal with H : (c =? _)%N = false |- _ => rewrite H; clear H end. reflexivity.
Qed.
