(** C04: parsing the minimal-parenthesis rendering of a surface tree gives back its AST.  Results
    are stated "for all sufficiently large fuel" ([ev]), so that fuel is never counted.  By induction
    a tree parses at every level of the precedence table ([Par]) and - in continuation form, since
    the parser handles left recursion by loops - after its tokens the parser stands in the operator
    loop of its level ([Kbin]) or in the postfix loop ([Kpost]) with the tree's AST in hand. *)
From Coq Require Import String.
From Cel.Model Require Import Surface.
From Cel.Proofs Require Import BaseFacts ParserUnfold LiteralProofs.
From Coq Require Import Lia.
Open Scope nat_scope.

Definition ev {A} (p : nat -> pres A) (r : pres A) : Prop := exists n, forall f, n <= f -> p f = r.

Lemma ev_const {A} (r : pres A) : ev (fun _ => r) r.
Proof. exists 0. reflexivity. Qed.

(** one unit of fuel is spent on an unfolding equation of ParserUnfold *)
Lemma ev_step {A} (p body : nat -> pres A) X : (forall f, p (S f) = body f) -> ev body X -> ev p X.
Proof. intros E [n H]. exists (S n). intros [|f] Hf; [lia|]. rewrite E. apply H. lia. Qed.

Lemma ev_ret {A} (p : nat -> pres A) X : (forall f, p f = X) -> ev p X.
Proof. intros E. exists 0. intros f _. apply E. Qed.

Lemma ev_now {A} (p : nat -> pres A) X : (forall f, p (S f) = X) -> ev p X.
Proof. intros E. exact (ev_step p _ X E (ev_const X)). Qed.

Lemma ev_bind {A B} (a : nat -> pres A) (k : nat -> A -> list tk -> pres B) x l X :
  ev a (POk x l) -> ev (fun f => k f x l) X -> ev (fun f => pbind (a f) (k f)) X.
Proof.
  intros [n1 H1] [n2 H2]. exists (max n1 n2). intros f Hf. rewrite H1 by lia. apply H2. lia.
Qed.

(** [stops l rest]: what may follow an expression parsed at level [l] - no operator of that level
    or tighter, and nothing that would extend a primary *)
Definition starter (t : tk) : bool :=
  match t with TDot | TLBracket | TLParen | TLBrace => true | _ => false end.
Definition op_level (t : tk) : option nat :=
  match t with
  | TQuestion => Some 0 | TOrOr => Some 1 | TAndAnd => Some 2
  | TLt | TLe | TGe | TGt | TEq | TNe | TIn => Some 3
  | TPlus | TMinus => Some 4
  | TStar | TSlash | TPercent => Some 5
  | _ => None
  end.
Definition stops (l : nat) (rest : list tk) : Prop :=
  match rest with
  | [] => True
  | t :: _ => starter t = false /\ match op_level t with Some k => k < l | None => True end
  end.

Lemma stops_le l l' rest : l <= l' -> stops l rest -> stops l' rest.
Proof.
  intros H. destruct rest as [|t r]; [auto|]. intros [S1 S2]. split; [exact S1|].
  destruct (op_level t); [lia|exact I].
Qed.

Lemma postfix_stop l e rest : stops l rest -> ev (fun f => p_postfix f e rest) (POk e rest).
Proof.
  intros Hs. apply ev_now. intro f. rewrite u_postfix. destruct rest as [|t r]; [reflexivity|]. destruct Hs as [Hs _].
  destruct t; try discriminate; reflexivity.
Qed.

Lemma head_not {A} (P : tk -> bool) (rest : list tk) (a b : A) :
  match rest with [] => True | t :: _ => P t = false end ->
  (match rest with t :: _ => if P t then a else b | [] => b end) = b.
Proof. destruct rest as [|t r]; [reflexivity|]. now intros ->. Qed.

Definition p_at (l : nat) : nat -> list tk -> pres expr :=
  match l with
  | 0 => p_expr | 1 => p_or | 2 => p_and | 3 => p_rel | 4 => p_add | 5 => p_mul | 6 => p_unary | _ => p_member
  end.

(** levels 3, 4, 5: left-associative binary operators *)
Definition loop_at (l : nat) : nat -> expr -> list tk -> pres expr :=
  match l with 3 => p_rel_loop | 4 => p_add_loop | _ => p_mul_loop end.
Definition opn_at (l : nat) : tk -> option str :=
  match l with 3 => relop_name | 4 => addop_name | _ => mulop_name end.

Lemma u_bin l f ts : 3 <= l <= 5 -> p_at l (S f) ts = pbind (p_at (S l) f ts) (loop_at l f).
Proof. intros H. destruct l as [|[|[|[|[|[|l]]]]]]; try lia; [apply u_rel|apply u_add|apply u_mul]. Qed.
Lemma u_bin_loop l f lhs ts : 3 <= l <= 5 ->
  loop_at l (S f) lhs ts = binloop (opn_at l) (p_at (S l) f) (loop_at l f) lhs ts.
Proof.
  intros H. destruct l as [|[|[|[|[|[|l]]]]]]; try lia; [apply u_rel_loop|apply u_add_loop|apply u_mul_loop].
Qed.
Lemma opn_level l op : 3 <= l <= 5 -> opn_at l op <> None -> starter op = false /\ op_level op = Some l.
Proof.
  intros H. destruct l as [|[|[|[|[|[|l]]]]]]; try lia; destruct op; cbn; intros N; try congruence; auto.
Qed.
Lemma loop_stop l lhs rest : 3 <= l <= 5 -> stops l rest -> ev (fun f => loop_at l f lhs rest) (POk lhs rest).
Proof.
  intros Hl Hs. apply ev_now. intro f. rewrite u_bin_loop by exact Hl. unfold binloop. destruct rest as [|t r]; [reflexivity|].
  destruct (opn_at l t) eqn:E; [|reflexivity]. destruct (opn_level l t Hl) as [_ Ol]; [congruence|].
  destruct Hs as [_ Hs]. rewrite Ol in Hs. lia.
Qed.

(** levels 1, 2: the || and && chains *)
Definition chain_at (l : nat) : nat -> list expr -> list tk -> pres expr :=
  match l with 1 => p_or_loop | _ => p_and_loop end.
Definition chain_tok (l : nat) : tk := match l with 1 => TOrOr | _ => TAndAnd end.
Definition chain_fn (l : nat) : str := match l with 1 => $"_||_" | _ => $"_&&_" end.

Lemma u_chain l f ts : 1 <= l <= 2 -> p_at l (S f) ts = pbind (p_at (S l) f ts) (fun t => chain_at l f [t]).
Proof. intros H. destruct l as [|[|[|l]]]; try lia; [apply u_or|apply u_and]. Qed.
Lemma chain_more l f acc ts : 1 <= l <= 2 ->
  chain_at l (S f) acc (chain_tok l :: ts) = pbind (p_at (S l) f ts) (fun t => chain_at l f (t :: acc)).
Proof. intros H. destruct l as [|[|[|l]]]; try lia; [apply u_or_loop|apply u_and_loop]. Qed.
Lemma chain_stop l acc rest : 1 <= l <= 2 -> stops l rest ->
  ev (fun f => chain_at l f acc rest) (POk (logic_tree (chain_fn l) (rev' acc)) rest).
Proof.
  intros H Hs. apply ev_now. intro f. destruct l as [|[|[|l]]]; try lia; cbn [chain_at chain_fn];
    [rewrite u_or_loop|rewrite u_and_loop]; (destruct rest as [|t r]; [reflexivity|]);
    destruct Hs as [_ Hs]; destruct t; cbn in Hs; try lia; reflexivity.
Qed.
Lemma chain_tok_level l : 1 <= l <= 2 -> starter (chain_tok l) = false /\ op_level (chain_tok l) = Some l.
Proof. intros H. destruct l as [|[|[|l]]]; try lia; split; reflexivity. Qed.

Definition plain_head (ts : list tk) : Prop :=
  match ts with TBang :: _ | TMinus :: _ | [] => False | _ => True end.

Lemma pass l ts e rest : l < 7 -> stops l rest -> (l = 6 -> plain_head ts) ->
  ev (fun f => p_at (S l) f (ts ++ rest)) (POk e rest) -> ev (fun f => p_at l f (ts ++ rest)) (POk e rest).
Proof.
  intros Hl Hs Hh H. assert (l = 0 \/ 1 <= l <= 2 \/ 3 <= l <= 5 \/ l = 6) as [->|[C|[C| ->]]] by lia.
  - eapply ev_step; [intro; apply u_expr|]. eapply ev_bind; [exact H|].
    destruct rest as [|t r]; [apply ev_const|]. destruct Hs as [_ Hs]. destruct t; cbn in Hs; try lia; apply ev_const.
  - eapply ev_step; [intro; apply u_chain, C|]. eapply ev_bind; [exact H|].
    now apply chain_stop.
  - eapply ev_step; [intro; apply u_bin, C|]. eapply ev_bind; [exact H|].
    now apply loop_stop.
  - specialize (Hh eq_refl). destruct ts as [|t0 ts]; [contradiction|].
    apply (ev_step _ (fun f => p_member f ((t0 :: ts) ++ rest))); [|exact H].
    intro f. cbn [p_at]. rewrite u_unary. cbn [app]. destruct t0; try contradiction; reflexivity.
Qed.

Lemma down p l ts e rest : l <= p -> p <= 7 -> (p = 7 -> l <= 6 -> plain_head ts) -> stops l rest ->
  ev (fun f => p_at p f (ts ++ rest)) (POk e rest) -> ev (fun f => p_at l f (ts ++ rest)) (POk e rest).
Proof.
  induction 1 as [|m Hlm IH]; intros Hp Hh Hs H; [exact H|].
  apply IH; [lia|intros; lia|exact Hs|].
  apply pass; [lia|eapply stops_le; eassumption|intros ->; now apply Hh|exact H].
Qed.

Section StInd.
  Variable P : st -> Prop.
  Hypothesis Hid : forall x, P (SId x).
  Hypothesis Hlit : forall l, P (SLit l).
  Hypothesis Hneglit : forall z, P (SNegLit z).
  Hypothesis Hnegdbl : forall t, P (SNegDbl t).
  Hypothesis Hsel : forall a f, P a -> P (SSel a f).
  Hypothesis Hidx : forall a i, P a -> P i -> P (SIdx a i).
  Hypothesis Hmcall : forall a f args, P a -> Forall P args -> P (SMCall a f args).
  Hypothesis Hcall : forall f args, Forall P args -> P (SCall f args).
  Hypothesis Hlist : forall es, Forall P es -> P (SLst es).
  Hypothesis Hmap : forall kvs, Forall (fun kv => P (fst kv) /\ P (snd kv)) kvs -> P (SMap kvs).
  Hypothesis Hmsg : forall lead names fields, Forall (fun nv => P (snd nv)) fields -> P (SMsg lead names fields).
  Hypothesis Hnot : forall n a, P a -> P (SNot n a).
  Hypothesis Hneg : forall n a, P a -> P (SNeg n a).
  Hypothesis Hmul : forall op a b, P a -> P b -> P (SMul op a b).
  Hypothesis Hadd : forall op a b, P a -> P b -> P (SAdd op a b).
  Hypothesis Hrel : forall op a b, P a -> P b -> P (SRel op a b).
  Hypothesis Hand : forall a rs, P a -> Forall P rs -> P (SAnd a rs).
  Hypothesis Hor : forall a rs, P a -> Forall P rs -> P (SOr a rs).
  Hypothesis Hcond : forall c a b, P c -> P a -> P b -> P (SCond c a b).
  Hypothesis Hparen : forall a, P a -> P (SParen a).
  Hypothesis Hlistt : forall es, Forall P es -> P (SLstT es).
  Hypothesis Hmapt : forall kvs, Forall (fun kv => P (fst kv) /\ P (snd kv)) kvs -> P (SMapT kvs).
  Hypothesis Hmsgt : forall lead names fields, Forall (fun nv => P (snd nv)) fields -> P (SMsgT lead names fields).
  Hypothesis Hdotid : forall x, P (SDotId x).
  Hypothesis Hdotcall : forall f args, Forall P args -> P (SDotCall f args).
  Hypothesis Hselesc : forall a f, P a -> P (SSelEsc a f).
  Fixpoint st_ind' (t : st) : P t :=
    let many := (fix go (l : list st) : Forall P l :=
                   match l with [] => Forall_nil _ | r :: l' => Forall_cons _ (st_ind' r) (go l') end) in
    let pairs := (fix go (l : list (st * st)) : Forall (fun kv => P (fst kv) /\ P (snd kv)) l :=
                    match l with
                    | [] => Forall_nil _
                    | kv :: l' =>
                        Forall_cons kv (match kv as p return P (fst p) /\ P (snd p) with
                                        | (k, v) => conj (st_ind' k) (st_ind' v)
                                        end) (go l')
                    end) in
    let named := (fix go (l : list (str * st)) : Forall (fun nv => P (snd nv)) l :=
                    match l with
                    | [] => Forall_nil _
                    | nv :: l' => Forall_cons nv (st_ind' (snd nv)) (go l')
                    end) in
    match t with
    | SId x => Hid x
    | SLit l => Hlit l
    | SNegLit z => Hneglit z
    | SNegDbl t => Hnegdbl t
    | SSel a f => Hsel a f (st_ind' a)
    | SIdx a i => Hidx a i (st_ind' a) (st_ind' i)
    | SMCall a f args => Hmcall a f args (st_ind' a) (many args)
    | SCall f args => Hcall f args (many args)
    | SLst es => Hlist es (many es)
    | SMap kvs => Hmap kvs (pairs kvs)
    | SMsg lead names fields => Hmsg lead names fields (named fields)
    | SNot n a => Hnot n a (st_ind' a)
    | SNeg n a => Hneg n a (st_ind' a)
    | SMul op a b => Hmul op a b (st_ind' a) (st_ind' b)
    | SAdd op a b => Hadd op a b (st_ind' a) (st_ind' b)
    | SRel op a b => Hrel op a b (st_ind' a) (st_ind' b)
    | SAnd a rs => Hand a rs (st_ind' a) (many rs)
    | SOr a rs => Hor a rs (st_ind' a) (many rs)
    | SCond c a b => Hcond c a b (st_ind' c) (st_ind' a) (st_ind' b)
    | SParen a => Hparen a (st_ind' a)
    | SLstT es => Hlistt es (many es)
    | SMapT kvs => Hmapt kvs (pairs kvs)
    | SMsgT lead names fields => Hmsgt lead names fields (named fields)
    | SDotId x => Hdotid x
    | SDotCall f args => Hdotcall f args (many args)
    | SSelEsc a f => Hselesc a f (st_ind' a)
    end.
End StInd.

Definition Par (t : st) : Prop :=
  forall l, l <= 7 -> forall rest, stops l rest ->
  ev (fun f => p_at l f (tk_at l t ++ rest)) (POk (ast t) rest).

(** [Kbin l t]: after the tokens of [t] at level [l] the parser is in that level's loop with
    [ast t] in hand *)
Definition Kbin (l : nat) (t : st) : Prop := forall R X, stops (S l) R ->
  ev (fun f => loop_at l f (ast t) R) X -> ev (fun f => p_at l f (tk_at l t ++ R)) X.

Lemma raw_chain (tok : tk) (g : st -> list tk) rs :
  (fix go (l : list st) : list tk := match l with [] => [] | r :: l' => tok :: g r ++ go l' end) rs =
  flat_map (fun r => tok :: g r) rs.
Proof. induction rs as [|r rs IH]; [reflexivity|]. cbn [flat_map app]. now rewrite <- IH. Qed.
Lemma raw_and a rs : raw (SAnd a rs) = tk_at 3 a ++ flat_map (fun r => TAndAnd :: tk_at 3 r) rs.
Proof. cbn [raw]. apply f_equal, (raw_chain TAndAnd (tk_at 3)). Qed.
Lemma raw_or a rs : raw (SOr a rs) = tk_at 2 a ++ flat_map (fun r => TOrOr :: tk_at 2 r) rs.
Proof. cbn [raw]. apply f_equal, (raw_chain TOrOr (tk_at 2)). Qed.
Lemma ast_many l : (fix go (l : list st) : list expr := match l with [] => [] | r :: l' => ast r :: go l' end) l = map ast l.
Proof. induction l as [|x l IH]; [reflexivity|]. cbn [map]. now rewrite <- IH. Qed.
Lemma ast_and a rs : ast (SAnd a rs) = logic_tree $"_&&_" (ast a :: map ast rs).
Proof. cbn [ast]. now rewrite ast_many. Qed.
Lemma ast_or a rs : ast (SOr a rs) = logic_tree $"_||_" (ast a :: map ast rs).
Proof. cbn [ast]. now rewrite ast_many. Qed.

(** heads: a rendering starts with a token that starts a primary, or a prefix operator *)
Definition prim_start (t : tk) : bool :=
  match t with
  | TIdent _ | TInt _ | TUint _ | TFloat _ | TString _ | TBytes _ | TTrue | TFalse | TNull | TLParen | TLBracket | TLBrace | TDot => true
  | _ => false
  end.
Definition hd_prim (ts : list tk) : Prop := match ts with t :: _ => prim_start t = true | [] => False end.
Definition hd_expr (ts : list tk) : Prop :=
  match ts with t :: _ => prim_start t = true \/ t = TBang \/ t = TMinus | [] => False end.
Lemma hd_prim_app a b : hd_prim a -> hd_prim (a ++ b).
Proof. destruct a; [contradiction|exact (fun H => H)]. Qed.
Lemma hd_expr_app a b : hd_expr a -> hd_expr (a ++ b).
Proof. destruct a; [contradiction|exact (fun H => H)]. Qed.
Lemma hd_prim_expr a : hd_prim a -> hd_expr a.
Proof. destruct a; [contradiction|]. cbn. auto. Qed.
Lemma lit_tk_start l : prim_start (lit_tk l) = true.
Proof. destruct l as [z|z|[]| |t s|t b|t]; reflexivity. Qed.

Lemma tk7_prim t : hd_prim (tk_at 7 t).
Proof.
  induction t using st_ind'; unfold tk_at; cbn [prec Nat.leb raw]; try exact eq_refl;
    try (fold (tk_at 7 t); apply hd_prim_app; exact IHt);
    try (fold (tk_at 7 t1); apply hd_prim_app; exact IHt1).
  - apply lit_tk_start.
  - destruct lead; [reflexivity|]. destruct names as [|a [|b r]]; reflexivity.
  - destruct lead; [reflexivity|]. destruct names as [|a [|b r]]; reflexivity.
Qed.
Lemma tk_hd l t : hd_expr (raw t) -> hd_expr (tk_at l t).
Proof. unfold tk_at. destruct (l <=? prec t); [auto|]. intros _. cbn. auto. Qed.
Lemma raw_hd t : hd_expr (raw t).
Proof.
  induction t using st_ind'; cbn [raw]; try (cbn; auto; fail);
    try (destruct lead; [cbn; auto|destruct names as [|a [|b r]]; cbn; auto]; fail).
  - left. apply lit_tk_start.
  - apply hd_expr_app, hd_prim_expr, tk7_prim.
  - apply hd_expr_app, hd_prim_expr, tk7_prim.
  - apply hd_expr_app, hd_prim_expr, tk7_prim.
  - apply hd_expr_app, tk_hd, IHt1.
  - apply hd_expr_app, tk_hd, IHt1.
  - apply hd_expr_app, tk_hd, IHt1.
  - change (if 3 <=? prec t then raw t else TLParen :: raw t ++ [TRParen]) with (tk_at 3 t). apply hd_expr_app, tk_hd, IHt.
  - change (if 2 <=? prec t then raw t else TLParen :: raw t ++ [TRParen]) with (tk_at 2 t). apply hd_expr_app, tk_hd, IHt.
  - apply hd_expr_app, tk_hd, IHt1.
  - apply hd_expr_app, hd_prim_expr, tk7_prim.
Qed.
Lemma tk7_head t : plain_head (tk_at 7 t).
Proof. pose proof (tk7_prim t) as H. destruct (tk_at 7 t) as [|t0 r]; [contradiction|]. destruct t0; try discriminate; exact I. Qed.

Lemma tk_raw l t : l <= prec t -> tk_at l t = raw t.
Proof. intros H. unfold tk_at. destruct (Nat.leb_spec l (prec t)); [reflexivity|lia]. Qed.
Lemma tk_paren l t : prec t < l -> tk_at l t = TLParen :: raw t ++ [TRParen].
Proof. intros H. unfold tk_at. destruct (Nat.leb_spec l (prec t)); [lia|reflexivity]. Qed.

Lemma tk_at_skip l t : prec t <> l -> tk_at l t = tk_at (S l) t.
Proof.
  intros H. unfold tk_at. destruct (Nat.leb_spec l (prec t)), (Nat.leb_spec (S l) (prec t)); try reflexivity; lia.
Qed.

(** what closes or separates an expression *)
Definition closer_tok (t : tk) : Prop :=
  match t with TRParen | TRBracket | TRBrace | TComma | TColon => True | _ => False end.
Lemma stops0_closer t R : closer_tok t -> stops 0 (t :: R).
Proof. destruct t; try contradiction; cbn; auto. Qed.

Lemma Par_expr t rest : Par t -> stops 0 rest -> ev (fun f => p_expr f (raw t ++ rest)) (POk (ast t) rest).
Proof. intros P Hs. rewrite <- (tk_raw 0 t) by lia. exact (P 0 ltac:(lia) rest Hs). Qed.
Lemma Par_closed t c R : Par t -> closer_tok c ->
  ev (fun f => p_expr f (raw t ++ c :: R)) (POk (ast t) (c :: R)).
Proof. intros P Hc. apply Par_expr; [exact P|now apply stops0_closer]. Qed.

Lemma u_primary_dot f ts : p_primary (S f) (TDot :: ts) = ident_forms f true ts.
Proof. apply u_primary. Qed.
Lemma u_primary_ident f x ts : p_primary (S f) (TIdent x :: ts) = ident_forms f false (TIdent x :: ts).
Proof. apply u_primary. Qed.

Lemma member_paren ts e R X :
  ev (fun f => p_expr f (ts ++ TRParen :: R)) (POk e (TRParen :: R)) ->
  ev (fun f => p_postfix f e R) X ->
  ev (fun f => p_member f (TLParen :: ts ++ TRParen :: R)) X.
Proof.
  intros H1 H2. eapply ev_step; [intro; apply u_member|]. eapply ev_bind; [|exact H2].
  eapply ev_step; [intro; apply u_primary|]. eapply ev_bind; [exact H1|now apply ev_ret].
Qed.

(** from the parse at the tree's own level to every level *)
Lemma par_all t : (forall rest, stops (prec t) rest ->
                     ev (fun f => p_at (prec t) f (raw t ++ rest)) (POk (ast t) rest)) ->
  (prec t = 7 -> plain_head (raw t)) -> Par t.
Proof.
  intros Hown Hh.
  assert (Hlow : forall l, l <= prec t -> forall rest, stops l rest ->
                 ev (fun f => p_at l f (raw t ++ rest)) (POk (ast t) rest)).
  { intros l Hl rest Hs. apply (down (prec t) l); auto.
    - destruct t; cbn; lia.
    - eapply Hown, stops_le; [|exact Hs]; exact Hl. }
  intros l Hl rest Hs. destruct (Nat.le_gt_cases l (prec t)) as [H|H].
  - rewrite (tk_raw l t H). now apply Hlow.
  - rewrite (tk_paren l t H).
    apply (down 7 l (TLParen :: raw t ++ [TRParen])); [exact Hl|lia|intros _ _; exact I|exact Hs|].
    cbn [p_at app]. rewrite <- app_assoc. apply (member_paren (raw t) (ast t)).
    + apply (Hlow 0); [lia|now apply stops0_closer].
    + exact (postfix_stop l _ rest Hs).
Qed.


Lemma chain_stops l rs rest : 1 <= l <= 2 -> stops l rest ->
  stops (S l) (flat_map (fun r => chain_tok l :: tk_at (S l) r) rs ++ rest).
Proof.
  intros Hl Hs. destruct rs as [|r rs]; [eapply stops_le; [|exact Hs]; lia|].
  destruct (chain_tok_level l Hl) as [C1 C2]. split; [exact C1|rewrite C2; lia].
Qed.

Lemma chain l rs : 1 <= l <= 2 -> Forall Par rs -> forall acc rest, stops l rest ->
  ev (fun f => chain_at l f acc (flat_map (fun r => chain_tok l :: tk_at (S l) r) rs ++ rest))
     (POk (logic_tree (chain_fn l) (rev' (rev (map ast rs) ++ acc))) rest).
Proof.
  intros Hl. induction 1 as [|r rs Hr _ IH]; intros acc rest Hs.
  - now apply chain_stop.
  - cbn [flat_map map rev]. rewrite <- !app_assoc. cbn [app].
    eapply ev_step; [intro; apply chain_more, Hl|].
    eapply ev_bind; [apply (Hr (S l)); [lia|now apply chain_stops]|apply IH, Hs].
Qed.

Lemma Kbin_from_par l t : 3 <= l <= 5 -> prec t <> l -> Par t -> Kbin l t.
Proof.
  intros Hl Hp HP R X Hs HX. rewrite (tk_at_skip l t Hp).
  eapply ev_step; [intro; apply u_bin, Hl|]. eapply ev_bind; [apply (HP (S l)); [lia|exact Hs]|exact HX].
Qed.

Lemma Kbin_node l t op a b : 3 <= l <= 5 -> prec t = l -> raw t = tk_at l a ++ [op] ++ tk_at (S l) b ->
  opn_at l op <> None -> ast t = ECall (opname (opn_at l op)) None [ast a; ast b] -> Kbin l a -> Par b -> Kbin l t.
Proof.
  intros Hl Hp Er En Ea Ka Pb R X Hs HX. rewrite (tk_raw l t) by lia. rewrite Er, <- !app_assoc. cbn [app].
  destruct (opn_level l op Hl En) as [Os Ol].
  apply Ka; [split; [exact Os|rewrite Ol; lia]|].
  eapply ev_step; [intro; apply u_bin_loop, Hl|]. unfold binloop. rewrite Ea in HX.
  destruct (opn_at l op); [|congruence].
  eapply ev_bind; [apply (Pb (S l)); [lia|exact Hs]|exact HX].
Qed.

Lemma par_of_Kbin l t : 3 <= l <= 5 -> prec t = l -> Kbin l t -> Par t.
Proof.
  intros Hl Hp HK. apply par_all; [|lia]. intros rest Hs. rewrite Hp in *. rewrite <- (tk_raw l t) by lia.
  apply HK; [eapply stops_le; [|exact Hs]; lia|]. now apply loop_stop.
Qed.

(** what may follow a primary so that the message-literal lookahead of an identifier fails *)
Definition msafe (R : list tk) : Prop := forall fuel x acc, msg_prefix fuel (TIdent x :: R) acc = None.
Lemma msafe_head R : match R with TLBrace :: _ | TDot :: _ => False | _ => True end -> msafe R.
Proof.
  intros H fuel x acc. destruct fuel; [reflexivity|]. cbn [msg_prefix].
  destruct R as [|t r]; [reflexivity|]. destruct t; try reflexivity; contradiction.
Qed.
Lemma msafe_sel g R : msafe R -> msafe (TDot :: TIdent g :: R).
Proof. intros H fuel x acc. destruct fuel; [reflexivity|]. apply H. Qed.
Lemma msafe_call g R : msafe (TDot :: TIdent g :: TLParen :: R).
Proof. intros [|[|fuel]] x acc; reflexivity. Qed.
Lemma msafe_selesc g R : msafe (TDot :: TEscIdent g :: R).
Proof. intros [|[|fuel]] x acc; reflexivity. Qed.

Definition postok (R : list tk) : Prop := msafe R /\ match R with TLParen :: _ => False | _ => True end.
Lemma stops_postok l R : stops l R -> postok R.
Proof.
  intros H. destruct R as [|t r]; [split; [now apply msafe_head|exact I]|]. destruct H as [H _].
  split; [apply msafe_head|]; destruct t; try discriminate; exact I.
Qed.

Lemma ident_forms_id f b x R : postok R -> ident_forms f b (TIdent x :: R) = POk (EIdent x) R.
Proof.
  intros [Hm Hp]. unfold ident_forms. rewrite Hm. destruct R as [|[] r]; try reflexivity; contradiction.
Qed.

(** [Kpost t]: after the tokens of [t] at member level the parser is in the postfix loop with
    [ast t] in hand *)
Definition Kpost (t : st) : Prop := forall R X, postok R ->
  ev (fun f => p_postfix f (ast t) R) X -> ev (fun f => p_member f (tk_at 7 t ++ R)) X.

Lemma Kpost_of_primary t : prec t = 7 ->
  (forall R, postok R -> ev (fun f => p_primary f (raw t ++ R)) (POk (ast t) R)) -> Kpost t.
Proof.
  intros Hp H R X HR HX. rewrite (tk_raw 7 t) by lia.
  eapply ev_step; [intro; apply u_member|]. eapply ev_bind; [apply H, HR|exact HX].
Qed.

(** a postfix segment [seg] after [a] *)
Lemma Kpost_of_postfix a t seg : prec t = 7 -> raw t = tk_at 7 a ++ seg -> Kpost a ->
  (forall R X, postok R -> ev (fun f => p_postfix f (ast t) R) X ->
     postok (seg ++ R) /\ ev (fun f => p_postfix f (ast a) (seg ++ R)) X) -> Kpost t.
Proof.
  intros Hp Er Ka H R X HR HX. rewrite (tk_raw 7 t) by lia. rewrite Er, <- app_assoc.
  destruct (H R X HR HX) as [P E]. now apply Ka.
Qed.

Lemma Kpost_paren t : prec t < 7 -> Par t -> Kpost t.
Proof.
  intros Hp HP R X _ HX. rewrite (tk_paren 7 t Hp). cbn [app]. rewrite <- app_assoc. cbn [app].
  apply (member_paren (raw t) (ast t)); [now apply Par_closed|exact HX].
Qed.

Lemma Par_of_Kpost t : prec t = 7 -> Kpost t -> Par t.
Proof.
  intros Hp HK. apply par_all.
  - intros rest Hs. rewrite Hp in *. rewrite <- (tk_raw 7 t) by lia.
    apply HK; [eapply stops_postok; exact Hs|]. exact (postfix_stop 7 _ rest Hs).
  - intros _. rewrite <- (tk_raw 7 t) by lia. apply tk7_head.
Qed.

(** the first token of a rendering is none of those the item parsers test for before an item *)
Lemma hd_not_closer ts R : hd_expr ts ->
  match ts ++ R with TRParen :: _ | TRBracket :: _ | TRBrace :: _ | TQuestion :: _ | TComma :: _ => False | _ => True end.
Proof. destruct ts as [|t r]; [contradiction|]. cbn. intros [H|[->| ->]]; [|exact I|exact I]. destruct t; try discriminate; exact I. Qed.

Lemma u_args_start f ts R : hd_expr ts -> p_args (S f) (ts ++ R) = p_args_rest f [] (ts ++ R).
Proof. intros H. apply (hd_not_closer ts R) in H. rewrite u_args. destruct (ts ++ R) as [|[] r]; try reflexivity; contradiction. Qed.
Lemma u_elems_start f acc ts R : hd_expr ts -> p_elems (S f) acc (ts ++ R) = elems_item f acc (ts ++ R).
Proof. intros H. apply (hd_not_closer ts R) in H. rewrite u_elems. destruct (ts ++ R) as [|[] r]; try reflexivity; contradiction. Qed.
Lemma u_entries_start f acc ts R : hd_expr ts -> p_entries (S f) acc (ts ++ R) = entries_item f acc (ts ++ R).
Proof. intros H. apply (hd_not_closer ts R) in H. rewrite u_entries. destruct (ts ++ R) as [|[] r]; try reflexivity; contradiction. Qed.
Lemma u_index_start f e ts R : hd_expr ts -> p_postfix (S f) e (TLBracket :: ts ++ R) = index_item f e (ts ++ R).
Proof. intros H. apply (hd_not_closer ts R) in H. rewrite u_postfix. destruct (ts ++ R) as [|[] r]; try reflexivity; contradiction. Qed.
Lemma u_list_start f ts R : hd_expr ts -> p_primary (S f) (TLBracket :: ts ++ R) = list_lit f (ts ++ R).
Proof. intros H. apply (hd_not_closer ts R) in H. rewrite u_primary. destruct (ts ++ R) as [|[] r]; try reflexivity; contradiction. Qed.
Lemma u_map_start f ts R : hd_expr ts -> p_primary (S f) (TLBrace :: ts ++ R) = map_lit f (ts ++ R).
Proof. intros H. apply (hd_not_closer ts R) in H. rewrite u_primary. destruct (ts ++ R) as [|[] r]; try reflexivity; contradiction. Qed.

(** A list parser [p] that takes an item and a comma in one round ([step]) parses all but the
    last item of a separated list; the premise of [items] says that it ends with the last item
    and whatever follows it, [tl]. *)
Section Items.
  Context {T B : Type} (p : nat -> list B -> list tk -> pres (list B)) (seps : list T -> list tk)
          (rw : T -> list tk) (val : T -> B) (ok : T -> Prop).
  Hypothesis seps_one : forall a, seps [a] = rw a.
  Hypothesis seps_more : forall a b l, seps (a :: b :: l) = rw a ++ TComma :: seps (b :: l).
  Hypothesis step : forall a acc rest X, ok a ->
    ev (fun f => p f (val a :: acc) rest) X -> ev (fun f => p f acc (rw a ++ TComma :: rest)) X.

  Lemma items l tl R : Forall ok l -> l <> [] ->
    (forall a acc, ok a -> ev (fun f => p f acc (rw a ++ tl)) (POk (rev' (val a :: acc)) R)) ->
    ev (fun f => p f [] (seps l ++ tl)) (POk (map val l) R).
  Proof.
    intros Hl Hne Last. rewrite <- (rev'_rev_nil (map val l)). generalize (@nil B) as acc.
    induction Hl as [|a l Ha Hl IH]; intros acc; [congruence|]. destruct l as [|b l'].
    - rewrite seps_one. apply Last, Ha.
    - rewrite seps_more. change (map val (a :: b :: l')) with (val a :: map val (b :: l')).
      cbn [rev]. rewrite <- !app_assoc. apply step; [exact Ha|].
      exact (IH ltac:(discriminate) (val a :: acc)).
  Qed.
End Items.

Fixpoint commas (l : list st) : list tk :=
  match l with
  | [] => []
  | x :: l' => raw x ++ match l' with [] => [] | _ => TComma :: commas l' end
  end.
Fixpoint entries_tk (l : list (st * st)) : list tk :=
  match l with
  | [] => []
  | (k, v) :: l' => raw k ++ [TColon] ++ raw v ++ match l' with [] => [] | _ => TComma :: entries_tk l' end
  end.
Definition entries_ast (l : list (st * st)) : list (expr * expr) := map (fun kv => (ast (fst kv), ast (snd kv))) l.
Fixpoint fields_tk (l : list (str * st)) : list tk :=
  match l with
  | [] => []
  | (n, v) :: l' => TIdent n :: TColon :: raw v ++ match l' with [] => [] | _ => TComma :: fields_tk l' end
  end.
Definition fields_ast (l : list (str * st)) : list (str * expr) := map (fun nv => (fst nv, ast (snd nv))) l.

Lemma commas_hd a l : hd_expr (commas (a :: l)).
Proof. apply hd_expr_app, raw_hd. Qed.
Lemma entries_hd kv l : hd_expr (entries_tk (kv :: l)).
Proof. destruct kv as [k v]. apply hd_expr_app, raw_hd. Qed.

Lemma args_step a acc rest X : Par a ->
  ev (fun f => p_args_rest f (ast a :: acc) rest) X -> ev (fun f => p_args_rest f acc (raw a ++ TComma :: rest)) X.
Proof.
  intros Pa HX. eapply ev_step; [intro; apply u_args_rest|]. eapply ev_bind; [now apply Par_closed|exact HX].
Qed.
Lemma args_last R a acc : Par a ->
  ev (fun f => p_args_rest f acc (raw a ++ TRParen :: R)) (POk (rev' (ast a :: acc)) R).
Proof.
  intros Pa. eapply ev_step; [intro; apply u_args_rest|]. eapply ev_bind; [now apply Par_closed|now apply ev_ret].
Qed.

Lemma args_ok l : Forall Par l -> forall R,
  ev (fun f => p_args f (commas l ++ TRParen :: R)) (POk (map ast l) R).
Proof.
  intros Hl R. destruct l as [|a l]; [apply ev_now; intro; apply u_args|].
  eapply ev_step; [intro; apply u_args_start, commas_hd|].
  apply (items p_args_rest commas raw ast Par);
    [intro; apply app_nil_r|reflexivity|exact args_step|exact Hl|discriminate|exact (args_last R)].
Qed.

Lemma elems_step a acc rest X : Par a ->
  ev (fun f => p_elems f (ast a :: acc) rest) X -> ev (fun f => p_elems f acc (raw a ++ TComma :: rest)) X.
Proof.
  intros Pa HX. eapply ev_step; [intro; apply u_elems_start, raw_hd|]. unfold elems_item.
  eapply ev_bind; [now apply Par_closed|exact HX].
Qed.
Lemma elems_last R a acc : Par a ->
  ev (fun f => p_elems f acc (raw a ++ TRBracket :: R)) (POk (rev' (ast a :: acc)) R).
Proof.
  intros Pa. eapply ev_step; [intro; apply u_elems_start, raw_hd|]. unfold elems_item.
  eapply ev_bind; [now apply Par_closed|now apply ev_ret].
Qed.

Lemma elems_end acc R : ev (fun f => p_elems f acc (TRBracket :: R)) (POk (rev' acc) R).
Proof. apply ev_now. intro. apply u_elems. Qed.

(** [tc] is the optional trailing comma *)
Lemma list_ok es tc R : Forall Par es -> tc = [] \/ tc = [TComma] ->
  ev (fun f => p_primary f (TLBracket :: commas es ++ tc ++ TRBracket :: R)) (POk (EList (map ast es)) R).
Proof.
  intros Pes Htc. destruct es as [|a es].
  - destruct Htc as [-> | ->]; [|apply ev_now; intro; apply u_primary].
    eapply ev_step; [intro; apply u_primary|]. unfold list_lit.
    eapply ev_bind; [apply elems_end|now apply ev_ret].
  - eapply ev_step; [intro; apply u_list_start, commas_hd|]. unfold list_lit.
    eapply ev_bind; [|now apply ev_ret].
    apply (items p_elems commas raw ast Par);
      [intro; apply app_nil_r|reflexivity|exact elems_step|exact Pes|discriminate|].
    intros b acc Pb. destruct Htc as [-> | ->]; [now apply elems_last|].
    apply elems_step; [exact Pb|]. apply elems_end.
Qed.

Definition entry_tk (kv : st * st) : list tk := raw (fst kv) ++ TColon :: raw (snd kv).
Definition entry_ast (kv : st * st) : expr * expr := (ast (fst kv), ast (snd kv)).
Definition Par2 (kv : st * st) : Prop := Par (fst kv) /\ Par (snd kv).

Lemma entries_step kv acc rest X : Par2 kv ->
  ev (fun f => p_entries f (entry_ast kv :: acc) rest) X ->
  ev (fun f => p_entries f acc (entry_tk kv ++ TComma :: rest)) X.
Proof.
  intros [Pk Pv] HX. unfold entry_tk. rewrite <- app_assoc. cbn [app].
  eapply ev_step; [intro; apply u_entries_start, raw_hd|]. unfold entries_item.
  eapply ev_bind; [now apply Par_closed|]. eapply ev_bind; [now apply Par_closed|exact HX].
Qed.
Lemma entries_last R kv acc : Par2 kv ->
  ev (fun f => p_entries f acc (entry_tk kv ++ TRBrace :: R)) (POk (rev' (entry_ast kv :: acc)) R).
Proof.
  intros [Pk Pv]. unfold entry_tk. rewrite <- app_assoc. cbn [app].
  eapply ev_step; [intro; apply u_entries_start, raw_hd|]. unfold entries_item.
  eapply ev_bind; [now apply Par_closed|]. eapply ev_bind; [now apply Par_closed|now apply ev_ret].
Qed.
Lemma entries_end acc R : ev (fun f => p_entries f acc (TRBrace :: R)) (POk (rev' acc) R).
Proof. apply ev_now. intro. apply u_entries. Qed.

Lemma map_ok kvs tc R : Forall Par2 kvs -> tc = [] \/ tc = [TComma] ->
  ev (fun f => p_primary f (TLBrace :: entries_tk kvs ++ tc ++ TRBrace :: R)) (POk (EMap (entries_ast kvs)) R).
Proof.
  intros Pk Htc. destruct kvs as [|kv kvs].
  - destruct Htc as [-> | ->]; [|apply ev_now; intro; apply u_primary].
    eapply ev_step; [intro; apply u_primary|]. unfold map_lit.
    eapply ev_bind; [apply entries_end|now apply ev_ret].
  - eapply ev_step; [intro; apply u_map_start, entries_hd|]. unfold map_lit.
    eapply ev_bind; [|now apply ev_ret].
    apply (items p_entries entries_tk entry_tk entry_ast Par2);
      [| |exact entries_step|exact Pk|discriminate|].
    + intros [k v]. cbn [entries_tk fst snd app]. now rewrite app_nil_r.
    + intros [k v] b l. unfold entry_tk. now rewrite <- app_assoc.
    + intros b acc Pb. destruct Htc as [-> | ->]; [now apply entries_last|].
      apply entries_step; [exact Pb|]. apply entries_end.
Qed.

(** message literals:  [.]a.b.T{f1: v1, ...} *)
Definition field_tk (nv : str * st) : list tk := TIdent (fst nv) :: TColon :: raw (snd nv).
Definition field_ast (nv : str * st) : str * expr := (fst nv, ast (snd nv)).

Lemma fields_step nv acc rest X : Par (snd nv) ->
  ev (fun f => p_fields f (field_ast nv :: acc) rest) X ->
  ev (fun f => p_fields f acc (field_tk nv ++ TComma :: rest)) X.
Proof.
  intros Pv HX. eapply ev_step; [intro; apply u_fields|]. unfold fields_item.
  eapply ev_bind; [now apply Par_closed|exact HX].
Qed.
Lemma fields_last R nv acc : Par (snd nv) ->
  ev (fun f => p_fields f acc (field_tk nv ++ TRBrace :: R)) (POk (rev' (field_ast nv :: acc)) R).
Proof.
  intros Pv. eapply ev_step; [intro; apply u_fields|]. unfold fields_item.
  eapply ev_bind; [now apply Par_closed|now apply ev_ret].
Qed.
Lemma fields_end acc R : ev (fun f => p_fields f acc (TRBrace :: R)) (POk (rev' acc) R).
Proof. apply ev_now. intro. apply u_fields. Qed.

Lemma fields_ok l tc R : Forall (fun nv => Par (snd nv)) l -> l <> [] -> tc = [] \/ tc = [TComma] ->
  ev (fun f => p_fields f [] (fields_tk l ++ tc ++ TRBrace :: R)) (POk (fields_ast l) R).
Proof.
  intros Pl Hne Htc.
  apply (items p_fields fields_tk field_tk field_ast (fun nv => Par (snd nv)));
    [| |exact fields_step|exact Pl|exact Hne|].
  - intros [n v]. cbn [fields_tk fst snd app]. now rewrite app_nil_r.
  - intros [n v] b l'. reflexivity.
  - intros b acc Pb. destruct Htc as [-> | ->]; [now apply fields_last|].
    apply fields_step; [exact Pb|]. apply fields_end.
Qed.

Lemma msg_prefix_ok names : names <> [] -> forall fuel acc r, length names <= fuel ->
  msg_prefix fuel (ids_tk names ++ TLBrace :: r) acc = Some (rev' (rev names ++ acc), r).
Proof.
  induction names as [|a names IH]; intros Hne fuel acc r Hf; [congruence|].
  destruct fuel as [|fuel]; [cbn in Hf; lia|]. destruct names as [|b names'].
  - reflexivity.
  - change (ids_tk (a :: b :: names')) with (TIdent a :: TDot :: ids_tk (b :: names')).
    cbn [app msg_prefix]. rewrite (IH ltac:(discriminate) fuel (a :: acc) r ltac:(cbn [length] in *; lia)).
    cbn [rev]. now rewrite <- !app_assoc.
Qed.
Lemma ids_tk_length names : length names <= length (ids_tk names).
Proof. induction names as [|a [|b r] IH]; cbn [ids_tk length] in *; lia. Qed.
Lemma ids_tk_head a names : exists r, ids_tk (a :: names) = TIdent a :: r.
Proof. destruct names; cbn [ids_tk]; eauto. Qed.

Lemma ident_forms_msg b names fields tc R :
  names <> [] -> Forall (fun nv => Par (snd nv)) fields -> tc = [] \/ tc = [TComma] ->
  ev (fun f => ident_forms f b (ids_tk names ++ TLBrace :: fields_tk fields ++ tc ++ TRBrace :: R))
     (POk (EStruct (if b then 46%N :: join_dots names else join_dots names) (fields_ast fields)) R).
Proof.
  intros Hn Pf Htc. unfold ident_forms.
  rewrite (msg_prefix_ok names Hn _ [])
    by (rewrite app_length; pose proof (ids_tk_length names); lia).
  rewrite rev'_rev_nil. destruct fields as [|[n v] fl].
  - destruct Htc as [-> | ->]; [|now apply ev_ret].
    eapply ev_bind; [apply fields_end|now apply ev_ret].
  - unfold msg_lit.
    eapply ev_bind; [exact (fields_ok ((n, v) :: fl) tc R Pf ltac:(discriminate) Htc)|now apply ev_ret].
Qed.

Lemma msg_ok (lead : bool) names fields tc R :
  names <> [] -> Forall (fun nv => Par (snd nv)) fields -> tc = [] \/ tc = [TComma] ->
  ev (fun f => p_primary f ((if lead then [TDot] else []) ++ ids_tk names ++ TLBrace :: fields_tk fields ++ tc ++ TRBrace :: R))
     (POk (EStruct (if lead then 46%N :: join_dots names else join_dots names) (fields_ast fields)) R).
Proof.
  intros Hn Pf Htc. destruct lead; cbn [app].
  - eapply ev_step; [intro; apply u_primary_dot|]. now apply ident_forms_msg.
  - pose proof (ident_forms_msg false names fields tc R Hn Pf Htc) as H.
    destruct names as [|a names]; [congruence|]. destruct (ids_tk_head a names) as [r E]. rewrite E in *.
    eapply ev_step; [intro; apply u_primary_ident|]. exact H.
Qed.

Lemma literal_ok l R : wf_lit l = true -> literal_of (lit_tk l :: R) = Some (ELit (lit_val l), R).
Proof.
  intros W. destruct l as [z|z|[]| |t s|t b|t]; cbn [lit_tk lit_val wf_lit literal_of] in *; try reflexivity.
  - apply andb_prop in W as [W0 W1].
    pose proof (int_literal_dec z W1) as E. replace (z <? 0)%Z with false in E by lia.
    replace (Z.abs z) with z in E by lia. now rewrite E.
  - now rewrite (uint_literal_dec z (ch "u") W).
  - destruct (decode_string t) as [s'|]; [|discriminate]. apply str_eqb_eq in W. now subst s'.
  - destruct (decode_bytes t) as [b'|]; [|discriminate]. apply str_eqb_eq in W. now subst b'.
  - destruct (double_literal false t); [reflexivity|discriminate].
Qed.

Lemma prim_lit f l R : wf_lit l = true -> p_primary (S f) (lit_tk l :: R) = POk (ELit (lit_val l)) R.
Proof.
  intros W. pose proof (literal_ok l R W) as E. rewrite u_primary.
  destruct l as [z|z|[]| |t s|t b|t]; cbn [lit_tk] in *; unfold lit_body; now rewrite E.
Qed.

Lemma mk_call_plain g tgt args rest : call_ok g tgt args = true ->
  mk_call g tgt args rest = POk (call_ast g tgt args) rest.
Proof.
  unfold call_ok, call_ast, mk_call. destruct (expand_call g tgt args); [reflexivity|discriminate].
Qed.

(** A name, receiver style and argument count no macro has: the call node itself. *)
Lemma call_ast_plain g tgt args : no_macro g (match tgt with Some _ => true | None => false end) (length args) = true ->
  call_ok g tgt args = true /\ call_ast g tgt args = ECall g tgt args.
Proof.
  unfold no_macro, call_ok, call_ast, expand_call. destruct (find_expander g _ (length args)); [discriminate|split; reflexivity].
Qed.

Lemma call_ok_ev (b : bool) g args R : call_ok (if b then 46%N :: g else g) None (map ast args) = true -> Forall Par args ->
  ev (fun f => ident_forms f b (TIdent g :: TLParen :: commas args ++ TRParen :: R))
     (POk (call_ast (if b then 46%N :: g else g) None (map ast args)) R).
Proof.
  intros Wm Pa. unfold ident_forms. cbn [msg_prefix length call_or_ident].
  eapply ev_bind; [now apply args_ok|]. apply ev_ret. intro. now apply mk_call_plain.
Qed.

Lemma raw_mcall a g args : raw (SMCall a g args) = tk_at 7 a ++ [TDot; TIdent g; TLParen] ++ commas args ++ [TRParen].
Proof. reflexivity. Qed.
Lemma raw_call g args : raw (SCall g args) = [TIdent g; TLParen] ++ commas args ++ [TRParen].
Proof. reflexivity. Qed.
Lemma raw_dotcall g args : raw (SDotCall g args) = [TDot; TIdent g; TLParen] ++ commas args ++ [TRParen].
Proof. reflexivity. Qed.
Lemma raw_list es : raw (SLst es) = [TLBracket] ++ commas es ++ [TRBracket].
Proof. reflexivity. Qed.
Lemma raw_listt es : raw (SLstT es) = [TLBracket] ++ commas es ++ [TComma; TRBracket].
Proof. reflexivity. Qed.
Lemma raw_map kvs : raw (SMap kvs) = [TLBrace] ++ entries_tk kvs ++ [TRBrace].
Proof. reflexivity. Qed.
Lemma raw_mapt kvs : raw (SMapT kvs) = [TLBrace] ++ entries_tk kvs ++ [TComma; TRBrace].
Proof. reflexivity. Qed.
Lemma raw_msg lead names fields :
  raw (SMsg lead names fields) = (if lead then [TDot] else []) ++ ids_tk names ++ [TLBrace] ++ fields_tk fields ++ [TRBrace].
Proof. reflexivity. Qed.
Lemma raw_msgt lead names fields :
  raw (SMsgT lead names fields) = (if lead then [TDot] else []) ++ ids_tk names ++ [TLBrace] ++ fields_tk fields ++ [TComma; TRBrace].
Proof. reflexivity. Qed.

Lemma ast_pairs l :
  (fix go (l : list (st * st)) : list (expr * expr) :=
     match l with [] => [] | (k, v) :: l' => (ast k, ast v) :: go l' end) l = entries_ast l.
Proof. unfold entries_ast. induction l as [|[k v] l IH]; [reflexivity|]. cbn [map fst snd]. now rewrite <- IH. Qed.
Lemma ast_fields l :
  (fix go (l : list (str * st)) : list (str * expr) :=
     match l with [] => [] | (n, v) :: l' => (n, ast v) :: go l' end) l = fields_ast l.
Proof. unfold fields_ast. induction l as [|[n v] l IH]; [reflexivity|]. cbn [map fst snd]. now rewrite <- IH. Qed.

Definition Good (t : st) : Prop := Par t /\ (forall l, 3 <= l <= 5 -> Kbin l t) /\ Kpost t.

Lemma wf_all l : Forall (fun r => wf_st r -> Good r) l -> Forall wf_st l -> Forall Par l.
Proof. apply Forall_mp. intros r. apply proj1. Qed.
Lemma wf_pairs l : Forall (fun kv => (wf_st (fst kv) -> Good (fst kv)) /\ (wf_st (snd kv) -> Good (snd kv))) l ->
  Forall (fun kv => wf_st (fst kv) /\ wf_st (snd kv)) l -> Forall Par2 l.
Proof.
  intros H W. eapply Forall_impl; [|exact (Forall_and H W)].
  intros kv [[Hk Hv] [Wk Wv]]. split; [exact (proj1 (Hk Wk))|exact (proj1 (Hv Wv))].
Qed.
Lemma wf_fields (l : list (str * st)) : Forall (fun nv => wf_st (snd nv) -> Good (snd nv)) l ->
  Forall (fun nv => wf_st (snd nv)) l -> Forall (fun nv => Par (snd nv)) l.
Proof. apply Forall_mp. intros nv. apply proj1. Qed.

Lemma good_prim t : prec t = 7 -> Kpost t -> Good t.
Proof.
  intros Hp HK. pose proof (Par_of_Kpost t Hp HK) as HP.
  split; [exact HP|]. split; [|exact HK]. intros l Hl. apply Kbin_from_par; [exact Hl|lia|exact HP].
Qed.
Lemma good_low t : prec t < 7 -> Par t -> (forall l, 3 <= l <= 5 -> prec t = l -> Kbin l t) -> Good t.
Proof.
  intros Hp HP HK. split; [exact HP|]. split; [|now apply Kpost_paren].
  intros l Hl. destruct (Nat.eq_dec (prec t) l); [auto|now apply Kbin_from_par].
Qed.
Lemma good_par t : prec t < 3 \/ prec t = 6 -> Par t -> Good t.
Proof. intros Hp HP. apply good_low; [lia|exact HP|intros; lia]. Qed.

Lemma good_id x : Good (SId x).
Proof.
  apply good_prim, Kpost_of_primary; try reflexivity. intros R HR.
  eapply ev_step; [intro; apply u_primary_ident|]. apply ev_ret. intro. now apply ident_forms_id.
Qed.
Lemma member_id x rest : stops 7 rest -> ev (fun f => p_member f (TIdent x :: rest)) (POk (EIdent x) rest).
Proof.
  intros Hs. eapply ev_step; [intro; apply u_member|].
  eapply ev_bind; [|exact (postfix_stop 7 _ rest Hs)].
  apply ev_now. intro f. rewrite u_primary_ident. apply ident_forms_id, (stops_postok 7), Hs.
Qed.
Lemma good_dotid x : Good (SDotId x).
Proof.
  apply good_prim, Kpost_of_primary; try reflexivity. intros R HR.
  eapply ev_step; [intro; apply u_primary_dot|]. apply ev_ret. intro. now apply ident_forms_id.
Qed.
Lemma good_lit l : wf_lit l = true -> Good (SLit l).
Proof.
  intros W. apply good_prim, Kpost_of_primary; try reflexivity. intros R HR.
  apply ev_now. intro. now apply prim_lit.
Qed.

(** a minus sign and a number: one literal *)
Lemma par_neglit t d v : prec t = 6 -> raw t = [TMinus; d] -> ast t = ELit v -> is_number_tok [d] = true ->
  (forall R, literal_of (TMinus :: d :: R) = Some (ELit v, R)) -> Par t.
Proof.
  intros Hp Er Ea Hd Hl. apply par_all; [|lia]. intros rest Hs. rewrite Hp in *. rewrite Er, Ea. cbn [p_at app].
  apply (ev_step _ (fun f => p_member f (TMinus :: d :: rest))).
  { intro f. rewrite u_unary. destruct d; try discriminate; reflexivity. }
  eapply ev_step; [intro; apply u_member|].
  eapply ev_bind; [|exact (postfix_stop 6 _ rest Hs)].
  apply ev_now. intro f. rewrite u_primary. unfold lit_body. now rewrite Hl.
Qed.
Lemma good_neglit z : ((z <? 0)%Z && in_i64 z) = true -> Good (SNegLit z).
Proof.
  intros W. apply andb_prop in W as [W0 W1]. apply good_par; [now right|].
  apply (par_neglit _ (TInt (nat_digits (- z))) (VInt z)); try reflexivity.
  intros R. cbn [literal_of]. pose proof (int_literal_dec z W1) as E. rewrite W0 in E.
  replace (Z.abs z) with (- z)%Z in E by lia. now rewrite E.
Qed.
Lemma good_negdbl t : double_literal true t <> None -> Good (SNegDbl t).
Proof.
  intros W. apply good_par; [now right|].
  apply (par_neglit _ (TFloat t) (match double_literal true t with Some d => VDbl d | None => VNull end));
    try reflexivity.
  intros R. cbn [literal_of]. destruct (double_literal true t); [reflexivity|congruence].
Qed.

Lemma good_sel a g : Good a -> Good (SSel a g).
Proof.
  intros (_ & _ & Ka). apply good_prim; [reflexivity|].
  apply (Kpost_of_postfix a _ [TDot; TIdent g]); [reflexivity|reflexivity|exact Ka|].
  intros R X [Rm Rp] HX. split; [split; [now apply msafe_sel|exact I]|].
  apply (ev_step _ (fun f => p_postfix f (ESelect (ast a) g false) R)); [|exact HX].
  intro f. rewrite u_postfix. cbn [app]. destruct R as [|[] r]; try reflexivity; contradiction.
Qed.
Lemma good_selesc a g : Good a -> Good (SSelEsc a g).
Proof.
  intros (_ & _ & Ka). apply good_prim; [reflexivity|].
  apply (Kpost_of_postfix a _ [TDot; TEscIdent g]); [reflexivity|reflexivity|exact Ka|].
  intros R X HR HX. split; [split; [apply msafe_selesc|exact I]|].
  eapply ev_step; [intro; apply u_postfix|exact HX].
Qed.
Lemma good_idx a i : Good a -> Good i -> Good (SIdx a i).
Proof.
  intros (_ & _ & Ka) (Pi & _). apply good_prim; [reflexivity|].
  apply (Kpost_of_postfix a _ ([TLBracket] ++ raw i ++ [TRBracket])); [reflexivity|reflexivity|exact Ka|].
  intros R X HR HX. rewrite <- !app_assoc. cbn [app]. split; [split; [now apply msafe_head|exact I]|].
  eapply ev_step; [intro; apply u_index_start, raw_hd|]. unfold index_item.
  eapply ev_bind; [now apply Par_closed|exact HX].
Qed.
Lemma good_mcall a g args : call_ok g (Some (ast a)) (map ast args) = true -> Good a -> Forall Par args ->
  Good (SMCall a g args).
Proof.
  intros Wm (_ & _ & Ka) Pargs. apply good_prim; [reflexivity|].
  apply (Kpost_of_postfix a _ ([TDot; TIdent g; TLParen] ++ commas args ++ [TRParen])); [reflexivity|apply raw_mcall|exact Ka|].
  intros R X HR HX. rewrite <- !app_assoc. cbn [app]. split; [split; [apply msafe_call|exact I]|].
  eapply ev_step; [intro; apply u_postfix|]. unfold mcall_item.
  eapply ev_bind; [now apply args_ok|]. rewrite mk_call_plain by exact Wm.
  cbn [ast] in HX. rewrite ast_many in HX. exact HX.
Qed.

Lemma good_call g args : call_ok g None (map ast args) = true -> Forall Par args -> Good (SCall g args).
Proof.
  intros Wm Pargs. apply good_prim, Kpost_of_primary; try reflexivity. intros R HR.
  rewrite raw_call, <- !app_assoc. cbn [app ast]. rewrite ast_many.
  eapply ev_step; [intro; apply u_primary_ident|]. now apply (call_ok_ev false).
Qed.
Lemma good_dotcall g args : call_ok (46%N :: g) None (map ast args) = true -> Forall Par args ->
  Good (SDotCall g args).
Proof.
  intros Wm Pargs. apply good_prim, Kpost_of_primary; try reflexivity. intros R HR.
  rewrite raw_dotcall, <- !app_assoc. cbn [app ast]. rewrite ast_many.
  eapply ev_step; [intro; apply u_primary_dot|]. now apply (call_ok_ev true).
Qed.

Lemma good_list es : Forall Par es -> Good (SLst es) /\ Good (SLstT es).
Proof.
  intros Pes. split; apply good_prim, Kpost_of_primary; try reflexivity; intros R HR; cbn [ast]; rewrite ast_many.
  - rewrite raw_list, <- !app_assoc. exact (list_ok es [] R Pes (or_introl eq_refl)).
  - rewrite raw_listt, <- !app_assoc. exact (list_ok es [TComma] R Pes (or_intror eq_refl)).
Qed.
Lemma good_map kvs : Forall Par2 kvs -> Good (SMap kvs) /\ Good (SMapT kvs).
Proof.
  intros Pk. split; apply good_prim, Kpost_of_primary; try reflexivity; intros R HR; cbn [ast]; rewrite ast_pairs.
  - rewrite raw_map, <- !app_assoc. exact (map_ok kvs [] R Pk (or_introl eq_refl)).
  - rewrite raw_mapt, <- !app_assoc. exact (map_ok kvs [TComma] R Pk (or_intror eq_refl)).
Qed.
Lemma good_msg lead names fields : names <> [] -> Forall (fun nv => Par (snd nv)) fields ->
  Good (SMsg lead names fields) /\ Good (SMsgT lead names fields).
Proof.
  intros Hn Pf. split; apply good_prim, Kpost_of_primary; try reflexivity; intros R HR; cbn [ast]; rewrite ast_fields.
  - rewrite raw_msg, <- !app_assoc. exact (msg_ok lead names fields [] R Hn Pf (or_introl eq_refl)).
  - rewrite raw_msgt, <- !app_assoc. exact (msg_ok lead names fields [TComma] R Hn Pf (or_intror eq_refl)).
Qed.

Lemma tk7_not_number t rest : is_number_tok (tk_at 7 t) = false -> is_number_tok (tk_at 7 t ++ rest) = false.
Proof. pose proof (tk7_prim t) as Hp. destruct (tk_at 7 t) as [|t0 r]; [contradiction|exact (fun H => H)]. Qed.

Lemma par_prefix t (P : tk -> bool) t0 nm n a : prec t = 6 -> raw t = repeat t0 (S n) ++ tk_at 7 a ->
  ast t = (if Nat.odd (S n) then ECall nm None [ast a] else ast a) ->
  (forall f rest, p_unary (S f) (repeat t0 (S n) ++ tk_at 7 a ++ rest) =
                  prefix_run P nm f (repeat t0 (S n) ++ tk_at 7 a ++ rest)) ->
  P t0 = true -> (forall x, prim_start x = true -> P x = false) -> Par a -> Par t.
Proof.
  intros Hp Er Ea Hu Pt Pn Pa. apply par_all; [|lia]. intros rest Hs. rewrite Hp in *. rewrite Er, Ea, <- app_assoc.
  apply (ev_step _ (fun f => pbind (p_member f (tk_at 7 a ++ rest))
                                (fun m => POk (if Nat.odd (S n) then ECall nm None [m] else m)))).
  { intro f. rewrite Hu. apply prefix_run_repeat; [exact Pt|].
    pose proof (tk7_prim a) as H. destruct (tk_at 7 a); [contradiction|now apply Pn]. }
  eapply ev_bind; [apply (Pa 7 (le_n 7)); eapply stops_le; [|exact Hs]; lia|now apply ev_ret].
Qed.
Lemma good_not n a : Good a -> Good (SNot n a).
Proof.
  intros (Pa & _). apply good_par; [now right|].
  apply (par_prefix _ is_bang TBang $"!_" n a); [reflexivity|reflexivity|reflexivity| |reflexivity| |exact Pa].
  - intros f rest. apply u_unary.
  - intros [] E; try reflexivity; discriminate E.
Qed.
Lemma good_neg n a : (n = 0 -> is_number_tok (tk_at 7 a) = false) -> Good a -> Good (SNeg n a).
Proof.
  intros Wn (Pa & _). apply good_par; [now right|].
  apply (par_prefix _ is_minus TMinus $"-_" n a); [reflexivity|reflexivity|reflexivity| |reflexivity| |exact Pa].
  - intros f rest. apply u_unary_minus. intros E. apply tk7_not_number, Wn, E.
  - intros [] E; try reflexivity; discriminate E.
Qed.

Lemma good_bin l t op a b : 3 <= l <= 5 -> prec t = l -> raw t = tk_at l a ++ [op] ++ tk_at (S l) b ->
  opn_at l op <> None -> ast t = ECall (opname (opn_at l op)) None [ast a; ast b] -> Good a -> Good b -> Good t.
Proof.
  intros Hl Hp Er En Ea (_ & Ka & _) (Pb & _).
  assert (HK : Kbin l t) by (apply (Kbin_node l t op a b); auto).
  apply good_low; [lia|now apply (par_of_Kbin l)|]. intros l' _ E. rewrite Hp in E. now subst l'.
Qed.

Lemma good_chain l t a rs : 1 <= l <= 2 -> prec t = l ->
  raw t = tk_at (S l) a ++ flat_map (fun r => chain_tok l :: tk_at (S l) r) rs ->
  ast t = logic_tree (chain_fn l) (ast a :: map ast rs) -> Good a -> Forall Par rs -> Good t.
Proof.
  intros Hl Hp Er Ea (Pa & _) Prs. apply good_par; [lia|].
  apply par_all; [|lia]. intros rest Hs. rewrite Hp in *. rewrite Er, Ea, <- app_assoc.
  eapply ev_step; [intro; apply u_chain, Hl|].
  eapply ev_bind; [apply (Pa (S l)); [lia|now apply chain_stops]|].
  pose proof (chain l rs Hl Prs [ast a] rest Hs) as C.
  rewrite rev'_rev, rev_app_distr, rev_involutive in C. exact C.
Qed.

Lemma good_cond c a b : Good c -> Good a -> Good b -> Good (SCond c a b).
Proof.
  intros (Pc & _) (Pa & _) (Pb & _). apply good_par; [cbn; lia|].
  apply par_all; [|cbn; lia]. intros rest Hs. cbn [prec] in Hs. cbn [prec p_at raw ast].
  fold (tk_at 1 c). fold (tk_at 1 a). rewrite <- !app_assoc. cbn [app].
  eapply ev_step; [intro; apply u_expr|]. eapply ev_bind; [apply (Pc 1); [lia|cbn; auto]|].
  eapply ev_bind; [apply (Pa 1); [lia|cbn; auto]|].
  eapply ev_bind; [now apply Par_expr|now apply ev_ret].
Qed.

Lemma good_paren a : Good a -> Good (SParen a).
Proof.
  intros (Pa & _). apply good_prim; [reflexivity|]. intros R X HR HX.
  rewrite (tk_raw 7 (SParen a)) by (cbn; lia). cbn [raw ast app] in *. rewrite <- app_assoc. cbn [app].
  apply (member_paren (raw a) (ast a)); [now apply Par_closed|exact HX].
Qed.

Theorem roundtrip_all t : wf_st t -> Good t.
Proof.
  induction t using st_ind'; intros W; cbn [wf_st] in W; rewrite ?all_go, ?all_go2, ?all_go_snd in W.
  - apply good_id.
  - now apply good_lit.
  - now apply good_neglit.
  - now apply good_negdbl.
  - apply good_sel; auto.
  - destruct W. apply good_idx; auto.
  - destruct W as (Wm & Wa & Wargs). apply good_mcall; auto. now apply wf_all.
  - destruct W as (Wm & Wargs). apply good_call; auto. now apply wf_all.
  - exact (proj1 (good_list es (wf_all es H W))).
  - exact (proj1 (good_map kvs (wf_pairs kvs H W))).
  - destruct W as [Wn Wf]. exact (proj1 (good_msg lead names fields Wn (wf_fields fields H Wf))).
  - apply good_not; auto.
  - destruct W as [W Wn]. apply good_neg; auto.
  - destruct W as (Wop & Wa & Wb). apply (good_bin 5 _ op t1 t2); [lia|reflexivity|reflexivity|exact Wop|reflexivity|auto|auto].
  - destruct W as (Wop & Wa & Wb). apply (good_bin 4 _ op t1 t2); [lia|reflexivity|reflexivity|exact Wop|reflexivity|auto|auto].
  - destruct W as (Wop & Wa & Wb). apply (good_bin 3 _ op t1 t2); [lia|reflexivity|reflexivity|exact Wop|reflexivity|auto|auto].
  - destruct W as (Wa & Wne & Wrs). apply (good_chain 2 _ t rs); [lia|reflexivity|apply raw_and|apply ast_and|auto|now apply wf_all].
  - destruct W as (Wa & Wne & Wrs). apply (good_chain 1 _ t rs); [lia|reflexivity|apply raw_or|apply ast_or|auto|now apply wf_all].
  - destruct W as (Wc & Wa & Wb). apply good_cond; auto.
  - apply good_paren; auto.
  - exact (proj2 (good_list es (wf_all es H W))).
  - exact (proj2 (good_map kvs (wf_pairs kvs H W))).
  - destruct W as [Wn Wf]. exact (proj2 (good_msg lead names fields Wn (wf_fields fields H Wf))).
  - apply good_dotid.
  - destruct W as (Wm & Wargs). apply good_dotcall; auto. now apply wf_all.
  - apply good_selesc; auto.
Qed.

(** The rendering of a well-formed tree parses, with any sufficient fuel, to the tree's AST:
    every operator binds as the precedence table says, chains associate to the left, && / ||
    chains build the balanced tree, parentheses group. *)
Theorem parse_roundtrip t : wf_st t -> exists n, forall f, n <= f -> p_expr f (raw t) = POk (ast t) [].
Proof.
  intros W. destruct (roundtrip_all t W) as (HP & _).
  destruct (Par_expr t [] HP I) as [n H]. rewrite app_nil_r in H. exact (ex_intro _ n H).
Qed.
