(** C14: list, map and string operations agree with one another. *)
From Coq Require Import String.
From Cel.Model Require Import Eval.
From Cel.Proofs Require Import BaseFacts EvalBase.
From Cel.Proofs Require ValueFacts.
From Coq Require Import Lia.

Definition present (k : key) (m : list (key * value)) : bool :=
  match map_get k m with Some _ => true | None => false end.

Definition no_null_values (m : list (key * value)) : Prop :=
  forall k v, map_get k m = Some v -> v <> VNull.

Lemma presence_index k m : no_null_values m ->
  exists v, v_index (VMap m) (value_of_key k) = Ok v /\ (present k m = true <-> v <> VNull).
Proof.
  intros Hnn. unfold present.
  assert (E : v_index (VMap m) (value_of_key k) =
              Ok (match map_get k m with Some v => v | None => VNull end)) by (destruct k; reflexivity).
  rewrite E. destruct (map_get k m) as [v|] eqn:Eg.
  - exists v. split; [reflexivity|]. split; [intros _; now apply (Hnn k)|reflexivity].
  - exists VNull. split; [reflexivity|]. split; [discriminate|congruence].
Qed.

Definition ident_start (c : N) : bool :=
  (((65 <=? c) && (c <=? 90)) || ((97 <=? c) && (c <=? 122)) || (c =? 95))%N.
Definition ident_like (s : str) : bool :=
  match s with
  | c :: _ => ident_start c && negb (str_eqb s $"true") && negb (str_eqb s $"false")
  | [] => false
  end.

Lemma uint_digits_head u : match uint_digits u with [] => True | c :: _ => (48 <= c <= 57)%N end.
Proof. destruct u; cbn; lia. Qed.

Lemma Z_to_str_not_ident z : ident_like (Z_to_str z) = false.
Proof.
  unfold Z_to_str. destruct (Z.to_int z) as [u|u]; [|reflexivity].
  pose proof (uint_digits_head u). destruct (uint_digits u) as [|c r]; [reflexivity|].
  cbn [ident_like]. unfold ident_start.
  now rewrite (proj2 (N.leb_gt 65 c)), (proj2 (N.leb_gt 97 c)), (proj2 (N.eqb_neq c 95)) by lia.
Qed.

Lemma key_text_ident k s : ident_like s = true -> str_eqb (key_text k) s = true -> k = KStr s.
Proof.
  intros Hi He. apply str_eqb_eq in He. subst s.
  destruct k as [z|z|b|t]; cbn [key_text] in Hi.
  - now rewrite Z_to_str_not_ident in Hi.
  - now rewrite Z_to_str_not_ident in Hi.
  - now destruct b.
  - reflexivity.
Qed.

Lemma has_field_str (m : list (key * value)) s : ident_like s = true ->
  has_field (VMap m) s = match assoc_get (KStr s) m with Some _ => true | None => false end.
Proof.
  intros Hi. cbn [has_field]. induction m as [|[k v] m IH]; cbn [existsb assoc_get fst]; [reflexivity|].
  destruct (str_eqb (key_text k) s) eqn:E.
  - apply (key_text_ident k s Hi) in E. subst k. cbn [key_eqb]. now rewrite str_eqb_refl.
  - cbn [orb]. rewrite IH. destruct k as [z|z|b|t]; cbn [key_eqb]; try reflexivity.
    cbn [key_text] in E. destruct (str_eqb s t) eqn:E2; [|reflexivity].
    apply str_eqb_eq in E2. subst t. rewrite str_eqb_refl in E. discriminate.
Qed.

Lemma map_get_str s (m : list (key * value)) : map_get (KStr s) m = assoc_get (KStr s) m.
Proof. unfold map_get. destruct (assoc_get (KStr s) m); reflexivity. Qed.

(** The keys [ks] are pairwise distinct and none of them is in [seen]. *)
Fixpoint distinct_from (seen : list key) (ks : list key) : bool :=
  match ks with
  | [] => true
  | k :: ks' => negb (existsb (key_eqb k) seen) && distinct_from (seen ++ [k]) ks'
  end.

Lemma assoc_set_fresh_b (k : key) (v : value) m :
  existsb (key_eqb k) (map fst m) = false -> assoc_set k v m = m ++ [(k, v)].
Proof.
  intros H. apply ValueFacts.assoc_set_fresh. intros Hin. apply Bool.not_true_iff_false in H. apply H.
  apply existsb_exists. exists k. split; [exact Hin|apply ValueFacts.key_eqb_refl].
Qed.

Lemma key_of_value_of_key k : key_of_value (value_of_key k) = Some k.
Proof. destruct k; reflexivity. Qed.

Definition lit_entry (kv : key * value) : expr * expr :=
  (ELit (value_of_key (fst kv)), ELit (snd kv)).

(** Map literals with pairwise distinct literal keys contain exactly the entries written,
    in the order written. *)
Lemma map_literal_go c entries : forall m log,
  distinct_from (map fst m) (map fst entries) = true ->
  map_go (eval c) (map lit_entry entries) m log = (Ok (VMap (m ++ entries)), log).
Proof.
  induction entries as [|[k v] entries IH]; intros m log Hd; cbn [map map_go lit_entry fst snd].
  - now rewrite app_nil_r.
  - rewrite !eval_lit, key_of_value_of_key. cbn [map fst distinct_from] in Hd.
    apply andb_true_iff in Hd as [Hk Hd]. apply negb_true_iff in Hk.
    rewrite (assoc_set_fresh_b k v m Hk), !app_nil_r.
    rewrite IH.
    + now rewrite <- app_assoc.
    + rewrite map_app. exact Hd.
Qed.

