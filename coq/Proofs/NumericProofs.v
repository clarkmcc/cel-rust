(** C13: numeric literals and conversions preserve the number or fail. *)
From Coq Require Import String.
From Cel.Model Require Import Builtins.
From Cel.Proofs Require Import BaseFacts Digits LiteralProofs.
From Coq Require Import Lia.
Open Scope Z_scope.

Lemma trunc_Z_spec f z : trunc_Z f = Some z ->
  match f with
  | S754_zero _ => z = 0
  | S754_finite s m e =>
      let a := Z.abs z in
      (if s then z <= 0 else 0 <= z) /\
      match e with
      | Z0 => a = Zpos m
      | Zpos p => a = Zpos m * 2 ^ Zpos p
      | Zneg p => a * 2 ^ Zpos p <= Zpos m < (a + 1) * 2 ^ Zpos p
      end
  | _ => False
  end.
Proof.
  destruct f as [s|s| |s m e]; unfold trunc_Z; try discriminate.
  - now intros [= <-].
  - intros H. apply (f_equal (fun o => match o with Some x => x | None => 0 end)) in H.
    subst z.
    assert (Hp : forall p, Z.pow_pos 2 p = 2 ^ Zpos p) by reflexivity.
    destruct e as [|p|p]; rewrite ?Hp.
    + destruct s; split; lia.
    + assert (0 < 2 ^ Zpos p) by (apply Z.pow_pos_nonneg; lia).
      assert (0 <= Zpos m * 2 ^ Zpos p) by (apply Z.mul_nonneg_nonneg; lia).
      destruct s; split; lia.
    + assert (0 < 2 ^ Zpos p) by (apply Z.pow_pos_nonneg; lia).
      assert (0 <= Zpos m / 2 ^ Zpos p) by (apply Z.div_pos; lia).
      pose proof (Z.mul_div_le (Zpos m) (2 ^ Zpos p) ltac:(lia)).
      pose proof (Z.mul_succ_div_gt (Zpos m) (2 ^ Zpos p) ltac:(lia)).
      destruct s; (split; [lia|]); rewrite ?Z.abs_opp, Z.abs_eq by lia; lia.
Qed.

Lemma uint_of_double f u : b_uint (VDbl f) = Ok (VUInt u) ->
  trunc_Z f = Some u /\ in_u64 u = true /\ f_nonneg f = true.
Proof.
  cbn [b_uint]. destruct (trunc_Z f) as [z|]; [|discriminate].
  destruct (f_nonneg f && in_u64 z) eqn:E; [|discriminate]. intros [= <-].
  apply andb_true_iff in E as [E1 E2]. auto.
Qed.

(** string() of an int or uint, read back *)
Lemma digits_val_dec t a : forallb is_digit t = true -> digits_val t a = Some (dec_num t a).
Proof.
  revert a; induction t as [|c t IH]; intros a H; cbn [digits_val dec_num]; [reflexivity|].
  cbn [forallb] in H. apply andb_true_iff in H as [Hc Ht].
  unfold is_digit in Hc. rewrite Hc. now apply IH.
Qed.

Lemma parse_int_text_of z signed : (signed = true \/ 0 <= z) ->
  parse_int_text signed (Z_text z) = Some z.
Proof.
  intros Hs. unfold Z_text. destruct (Z.ltb_spec z 0) as [Hneg|Hpos].
  - destruct Hs as [->|]; [|lia].
    destruct (nat_digits_spec (- z)) as (H1 & H2 & _); [lia|].
    destruct (nat_digits_head (- z)) as (c & r & E & _); [lia|]. rewrite E in *.
    cbn [parse_int_text]. change ((45 =? 43)%N) with false. change ((45 =? 45)%N) with true. cbn iota.
    rewrite (digits_val_dec _ 0 H2), H1. cbn. f_equal. lia.
  - destruct (nat_digits_spec z Hpos) as (H1 & H2 & _).
    destruct (nat_digits_head z Hpos) as (c & r & E & Hc). rewrite E in *.
    cbn [parse_int_text].
    assert (E1 : (c =? 43)%N = false) by (unfold is_digit in Hc; lia).
    assert (E2 : (c =? 45)%N = false) by (unfold is_digit in Hc; lia).
    rewrite E1, E2. rewrite (digits_val_dec _ 0 H2), H1. reflexivity.
Qed.

(** bytes(string) / string(bytes): UTF-8 encode then decode is the identity on scalars *)
Open Scope N_scope.
Lemma cont_byte x : x < 64 -> ((128 <=? 128 + x) && (128 + x <=? 191)) = true.
Proof. intros H. lia. Qed.
Lemma tag_sub t x : t + x - t = x.
Proof. lia. Qed.

Lemma utf8_step f c r acc : is_scalar c = true ->
  utf8_decode (S f) (utf8_enc1 c ++ r) acc = utf8_decode f r (c :: acc).
Proof.
  intros Hs. unfold is_scalar in Hs. unfold utf8_enc1.
  destruct (N.ltb_spec c 128) as [H1|H1]; [|destruct (N.ltb_spec c 2048) as [H2|H2];
    [|destruct (N.ltb_spec c 65536) as [H3|H3]]]; cbn [app utf8_decode];
    rewrite ?cont_byte, ?tag_sub by (apply N.mod_lt; discriminate).
  - destruct (N.ltb_spec c 128); [reflexivity|lia].
  - assert (E0 : (192 + c / 64 <? 128) = false) by lia.
    assert (E1 : ((194 <=? 192 + c / 64) && (192 + c / 64 <=? 223)) = true) by lia.
    rewrite E0, E1. f_equal. f_equal. lia.
  - assert (E0 : (224 + c / 4096 <? 128) = false) by lia.
    assert (E1 : ((194 <=? 224 + c / 4096) && (224 + c / 4096 <=? 223)) = false) by lia.
    assert (E2 : ((224 <=? 224 + c / 4096) && (224 + c / 4096 <=? 239)) = true) by lia.
    rewrite E0, E1, E2.
    replace (c / 4096 * 4096 + (c / 64) mod 64 * 64 + c mod 64) with c by lia.
    assert (E5 : (2048 <=? c) = true) by lia. rewrite E5.
    unfold is_scalar. rewrite Hs. reflexivity.
  - assert (Hc : c < 1114112) by lia.
    assert (E0 : (240 + c / 262144 <? 128) = false) by lia.
    assert (E1 : ((194 <=? 240 + c / 262144) && (240 + c / 262144 <=? 223)) = false) by lia.
    assert (E2 : ((224 <=? 240 + c / 262144) && (240 + c / 262144 <=? 239)) = false) by lia.
    assert (E2' : ((240 <=? 240 + c / 262144) && (240 + c / 262144 <=? 244)) = true) by lia.
    rewrite E0, E1, E2, E2'.
    replace (c / 262144 * 262144 + (c / 4096) mod 64 * 4096 + (c / 64) mod 64 * 64 + c mod 64) with c by lia.
    assert (E6 : (65536 <=? c) = true) by lia. assert (E7 : (c <? 1114112) = true) by lia.
    now rewrite E6, E7.
Qed.

Lemma utf8_enc1_len c : (1 <= length (utf8_enc1 c))%nat.
Proof. unfold utf8_enc1. repeat match goal with |- context [if ?b then _ else _] => destruct b end; cbn; lia. Qed.

Lemma utf8_roundtrip_go s : forall f acc, forallb is_scalar s = true ->
  (length (utf8_enc s) < f)%nat ->
  utf8_decode f (utf8_enc s) acc = Some (rev' acc ++ s).
Proof.
  induction s as [|c s IH]; intros f acc Hs Hf.
  - destruct f; [cbn in Hf; lia|]. now rewrite app_nil_r.
  - apply andb_true_iff in Hs as [Hc Hs].
    unfold utf8_enc in *. cbn [flat_map] in *. rewrite app_length in Hf.
    pose proof (utf8_enc1_len c).
    destruct f as [|f]; [lia|]. rewrite (utf8_step f c _ acc Hc).
    rewrite IH by (assumption || lia). now rewrite rev'_cons.
Qed.

Lemma utf8_roundtrip s : forallb is_scalar s = true -> utf8_dec (utf8_enc s) = Some s.
Proof. intros H. unfold utf8_dec. rewrite utf8_roundtrip_go by (assumption || lia). reflexivity. Qed.
