(** C07: a bound on host-function invocations for programs WITH macros: the size of the program
    times the product of the sizes of the collections its nested comprehensions range over. *)
From Coq Require Import Lia.
From Cel.Model Require Import Eval.
From Cel.Proofs Require Import BaseFacts EvalBase OrderProofs.
Open Scope nat_scope.

(** cost with every comprehension range holding at most [B] items: condition and step are
    evaluated at most once per item, range, initial value and result once *)
Fixpoint cost (B : nat) (e : expr) : nat :=
  match e with
  | EUnspec | ELit _ | EIdent _ => 0
  | ECall _ t args =>
      1 + match t with Some t' => cost B t' | None => 0 end +
      (fix go (l : list expr) : nat := match l with [] => 0 | a :: l' => cost B a + go l' end) args
  | ESelect o _ _ => cost B o
  | EList es => (fix go (l : list expr) : nat := match l with [] => 0 | a :: l' => cost B a + go l' end) es
  | EMap es => (fix go (l : list (expr * expr)) : nat :=
                  match l with [] => 0 | (k, v) :: l' => cost B k + cost B v + go l' end) es
  | EStruct _ _ => 0
  | EComp r _ _ i c s res => cost B i + cost B r + B * (cost B c + cost B s) + cost B res
  end.

Section Bound.
  (** [P]: an invariant of the contexts the program runs in, kept by opening a scope and by
      binding the names [N] (the iteration and accumulator variables of the program) *)
  Variable P : ctx -> Prop.
  Variable N : str -> Prop.
  Variable B : nat.
  Hypothesis P_push : forall c, P c -> P (push c).
  Hypothesis P_define : forall c x v, P c -> N x -> P (define c x v).
  Hypothesis P_once : forall c, P c -> once_ctx c.

  (** every comprehension binds names of [N] and ranges, in every context of [P], over at most
      [B] items *)
  Fixpoint ranges_le (e : expr) : Prop :=
    match e with
    | EUnspec | ELit _ | EIdent _ | EStruct _ _ => True
    | ECall _ t args =>
        match t with Some t' => ranges_le t' | None => True end /\
        (fix go (l : list expr) : Prop := match l with [] => True | a :: l' => ranges_le a /\ go l' end) args
    | ESelect o _ _ => ranges_le o
    | EList es => (fix go (l : list expr) : Prop := match l with [] => True | a :: l' => ranges_le a /\ go l' end) es
    | EMap es => (fix go (l : list (expr * expr)) : Prop :=
                    match l with [] => True | (k, v) :: l' => ranges_le k /\ ranges_le v /\ go l' end) es
    | EComp r iv av i c s res =>
        N iv /\ N av /\
        (forall d, P d -> match fst (eval d r) with
                          | Ok v => match range_items v with Some its => length its <= B | None => True end
                          | _ => True
                          end) /\
        ranges_le r /\ ranges_le i /\ ranges_le c /\ ranges_le s /\ ranges_le res
    end.

  Lemma loop_loglen iv av cond step res Mc Ms Mr : N iv -> N av ->
    (forall d, P d -> loglen (eval d cond) <= Mc) -> (forall d, P d -> loglen (eval d step) <= Ms) ->
    (forall d, P d -> loglen (eval d res) <= Mr) ->
    forall its c', P c' ->
    loglen (comp_loop eval iv av cond step res its c' []) <= length its * (Mc + Ms) + Mr.
  Proof.
    intros Hiv Hav Hc Hs Hr. induction its as [|it rest IH]; intros c' Pc.
    - rewrite comp_loop_nil. now apply Hr.
    - rewrite comp_loop_cons. cbn [length Nat.mul]. rewrite <- !Nat.add_assoc.
      apply rbind_loglen; [now apply Hc|]. intros vc.
      destruct (to_bool vc); [|specialize (Hr c' Pc); lia].
      apply rbind_loglen; [now apply Hs, P_define|]. intros va. apply IH. now repeat apply P_define.
  Qed.

  Theorem cost_bound e : ranges_le e -> forall c, P c -> loglen (eval c e) <= cost B e.
  Proof.
    induction e using expr_ind'; intros Hn c Pc; cbn [ranges_le cost] in *; try apply Nat.le_0_l.
    - rewrite eval_call. destruct Hn as [Ht Ha]. apply all_go in Ha. rewrite sum_go.
      eapply Nat.le_trans; [apply call_dispatch_loglen, P_once, Pc|].
      apply Nat.add_le_mono; [apply Nat.add_le_mono_l|].
      + destruct target as [t|]; [now apply (H t)|apply le_n].
      + rewrite logs_of_map. apply list_sum_le. rewrite Forall_forall in *. auto.
    - rewrite eval_select, <- (Nat.add_0_r (cost B e)).
      apply rbind_loglen; [now apply IHe|]. intros v. now destruct t.
    - rewrite eval_list, sum_go. apply all_go in Hn.
      eapply Nat.le_trans; [apply list_go_loglen|]. apply list_sum_le. rewrite Forall_forall in *. auto.
    - rewrite eval_map, sum_go2. apply all_go2 in Hn.
      eapply Nat.le_trans; [apply map_go_loglen|]. apply list_sum_le. rewrite Forall_forall in *.
      intros kv Hkv. destruct (H kv Hkv), (Hn kv Hkv). apply Nat.add_le_mono; auto.
    - destruct Hn as (Niv & Nav & HB & Hr & Hi & Hc & Hs & Hres).
      rewrite eval_comp, <- !Nat.add_assoc.
      apply rbind_loglen; [now apply IHe2|]. intros vinit.
      specialize (HB c Pc). pose proof (IHe1 Hr c Pc) as Lr.
      destruct (eval c e1) as [[vr|x|s] lr]; [|unfold loglen in *; cbn [rbind snd] in *; lia..].
      rewrite rbind_ok, prepend_loglen. apply Nat.add_le_mono; [exact Lr|]. cbn [fst] in HB.
      destruct (range_items vr) as [its|]; [|apply Nat.le_0_l].
      eapply Nat.le_trans; [apply (loop_loglen iv av e3 e4 e5 (cost B e3) (cost B e4) (cost B e5)); auto|].
      apply Nat.add_le_mono_r, Nat.mul_le_mono_r, HB.
  Qed.
End Bound.

(** Without comprehensions the bound is the number of call nodes, in any context. *)
Lemma no_comp_cost P N B e : no_comp e -> ranges_le P N B e /\ cost B e = ncalls e.
Proof.
  induction e using expr_ind'; cbn [no_comp ranges_le cost ncalls]; try assumption;
    try (intros; now split).
  - intros [Ht Ha]. apply all_go in Ha. rewrite all_go, !sum_go.
    assert (HA : Forall (fun a => ranges_le P N B a /\ cost B a = ncalls a) args)
      by (rewrite Forall_forall in *; auto).
    apply Forall_and_inv in HA as [HA1 HA2]. rewrite (map_ext_Forall _ _ HA2).
    destruct target as [t|]; [destruct (H t eq_refl Ht) as [H1 ->]|]; auto.
  - intros Hn. apply all_go in Hn. rewrite all_go, !sum_go.
    assert (HA : Forall (fun a => ranges_le P N B a /\ cost B a = ncalls a) es)
      by (rewrite Forall_forall in *; auto).
    apply Forall_and_inv in HA as [HA1 HA2]. now rewrite (map_ext_Forall _ _ HA2).
  - intros Hn. apply all_go2 in Hn. rewrite all_go2, !sum_go2.
    assert (HA : Forall (fun kv => (ranges_le P N B (fst kv) /\ ranges_le P N B (snd kv)) /\
                                   cost B (fst kv) + cost B (snd kv) = ncalls (fst kv) + ncalls (snd kv)) es).
    { rewrite Forall_forall in *. intros kv Hkv. destruct (H kv Hkv) as [H1 H2], (Hn kv Hkv) as [N1 N2].
      destruct (H1 N1) as [? ->], (H2 N2) as [? ->]. auto. }
    apply Forall_and_inv in HA as [HA1 HA2]. now rewrite (map_ext_Forall _ _ HA2).
Qed.

(** Ranges written as list literals: their length does not depend on the context. *)
Fixpoint lit_ranges (B : nat) (e : expr) : Prop :=
  match e with
  | EUnspec | ELit _ | EIdent _ | EStruct _ _ => True
  | ECall _ t args =>
      match t with Some t' => lit_ranges B t' | None => True end /\
      (fix go (l : list expr) : Prop := match l with [] => True | a :: l' => lit_ranges B a /\ go l' end) args
  | ESelect o _ _ => lit_ranges B o
  | EList es => (fix go (l : list expr) : Prop := match l with [] => True | a :: l' => lit_ranges B a /\ go l' end) es
  | EMap es => (fix go (l : list (expr * expr)) : Prop :=
                  match l with [] => True | (k, v) :: l' => lit_ranges B k /\ lit_ranges B v /\ go l' end) es
  | EComp r iv av i c s res =>
      (exists es, r = EList es /\ length es <= B) /\
      lit_ranges B r /\ lit_ranges B i /\ lit_ranges B c /\ lit_ranges B s /\ lit_ranges B res
  end.

Lemma list_go_items ev l : forall acc log v lg,
  list_go ev l acc log = (Ok v, lg) -> exists its, v = VList its /\ length its = length acc + length l.
Proof.
  induction l as [|a l IH]; intros acc log v lg; cbn [list_go].
  - intros [= <- <-]. eexists. split; [reflexivity|]. rewrite rev'_length. apply plus_n_O.
  - destruct (ev a) as [[x|x|s] la]; try discriminate. intros H. apply IH in H as (its & -> & L).
    exists its. split; [reflexivity|]. cbn [length] in *. lia.
Qed.

Lemma lit_ranges_le B e : lit_ranges B e -> ranges_le once_ctx (fun _ => True) B e.
Proof.
  induction e using expr_ind'; cbn [lit_ranges ranges_le]; auto.
  - rewrite !all_go. intros [Ht Ha]. split; [destruct target; auto|].
    rewrite Forall_forall in *. auto.
  - rewrite !all_go, !Forall_forall in *. auto.
  - rewrite !all_go2, !Forall_forall in *. intros Hn kv Hkv.
    destruct (H kv Hkv), (Hn kv Hkv). auto.
  - intros ((es & -> & Hl) & H1 & H2 & H3 & H4 & H5). repeat split; auto.
    intros d _. rewrite eval_list. destruct (list_go (eval d) es [] []) as [[v|x|s] lg] eqn:E; cbn [fst]; auto.
    apply list_go_items in E as (its & -> & L). cbn [range_items length] in *. lia.
Qed.

(** [once_ctx] is itself such an invariant, kept by binding any name. *)
Corollary cost_bound_once B e c :
  once_ctx c -> ranges_le once_ctx (fun _ => True) B e -> loglen (eval c e) <= cost B e.
Proof.
  intros Hc Hr.
  exact (cost_bound once_ctx (fun _ => True) B (fun _ H => H) (fun _ _ _ H _ => H) (fun _ H => H) e Hr c Hc).
Qed.
