(** More fuel never changes an answer other than "out of fuel": [p_X f ts] is [PFuel] or equal
    to [p_X (S f) ts], for every parser function.  With ParserTotal (the fuel [compile] uses is
    never exhausted) a result established "for all sufficiently large fuel" is the result of
    [parse_tokens].  ParserRoundtrip is loaded for [ev] ("for all sufficiently large fuel") alone. *)
From Cel.Model Require Import Surface.
From Cel.Proofs Require Import ParserUnfold ParserTotal ParserRoundtrip.
From Coq Require Import Lia.
Open Scope nat_scope.

Definition le_res {A} (a b : pres A) : Prop := a = PFuel \/ a = b.
Lemma le_refl {A} (a : pres A) : le_res a a. Proof. now right. Qed.
Lemma le_fuel {A} (b : pres A) : le_res PFuel b. Proof. now left. Qed.

Lemma le_bind {A B} (a a' : pres A) (k k' : A -> list tk -> pres B) :
  le_res a a' -> (forall x l, le_res (k x l) (k' x l)) -> le_res (pbind a k) (pbind a' k').
Proof.
  intros [->| <-] Hk; [apply le_fuel|]. destruct a; [apply Hk|apply le_refl|apply le_refl].
Qed.

Lemma le_map {A B} (a a' : pres A) (k : A -> list tk -> pres B) : le_res a a' -> le_res (pbind a k) (pbind a' k).
Proof. intros H. apply le_bind; [exact H|intros; apply le_refl]. Qed.

Record MIH (f : nat) : Prop := {
  Mexpr : forall ts, le_res (p_expr f ts) (p_expr (S f) ts);
  Mor : forall ts, le_res (p_or f ts) (p_or (S f) ts);
  Mand : forall ts, le_res (p_and f ts) (p_and (S f) ts);
  Mrel : forall ts, le_res (p_rel f ts) (p_rel (S f) ts);
  Madd : forall ts, le_res (p_add f ts) (p_add (S f) ts);
  Mmul : forall ts, le_res (p_mul f ts) (p_mul (S f) ts);
  Munary : forall ts, le_res (p_unary f ts) (p_unary (S f) ts);
  Mmember : forall ts, le_res (p_member f ts) (p_member (S f) ts);
  Mprimary : forall ts, le_res (p_primary f ts) (p_primary (S f) ts);
  Morl : forall acc ts, le_res (p_or_loop f acc ts) (p_or_loop (S f) acc ts);
  Mandl : forall acc ts, le_res (p_and_loop f acc ts) (p_and_loop (S f) acc ts);
  Mrell : forall l ts, le_res (p_rel_loop f l ts) (p_rel_loop (S f) l ts);
  Maddl : forall l ts, le_res (p_add_loop f l ts) (p_add_loop (S f) l ts);
  Mmull : forall l ts, le_res (p_mul_loop f l ts) (p_mul_loop (S f) l ts);
  Mpostfix : forall e ts, le_res (p_postfix f e ts) (p_postfix (S f) e ts);
  Margs : forall ts, le_res (p_args f ts) (p_args (S f) ts);
  Margsr : forall acc ts, le_res (p_args_rest f acc ts) (p_args_rest (S f) acc ts);
  Melems : forall acc ts, le_res (p_elems f acc ts) (p_elems (S f) acc ts);
  Mentries : forall acc ts, le_res (p_entries f acc ts) (p_entries (S f) acc ts);
  Mfields : forall acc ts, le_res (p_fields f acc ts) (p_fields (S f) acc ts)
}.

Section Step.
Variable f : nat.
Hypothesis IH : MIH f.

Lemma m_cond_tail c ts : le_res (cond_tail f c ts) (cond_tail (S f) c ts).
Proof.
  apply le_bind; [apply (Mor f IH)|]. intros a l. destruct l as [|[] l]; try apply le_refl.
  apply le_map, (Mexpr f IH).
Qed.

Lemma m_expr ts : le_res (p_expr (S f) ts) (p_expr (S (S f)) ts).
Proof.
  rewrite !u_expr. apply le_bind; [apply (Mor f IH)|]. intros c l.
  destruct l as [|[] l]; try apply le_refl. apply m_cond_tail.
Qed.

Lemma m_or ts : le_res (p_or (S f) ts) (p_or (S (S f)) ts).
Proof. rewrite !u_or. apply le_bind; [apply (Mand f IH)|intros; apply (Morl f IH)]. Qed.
Lemma m_and ts : le_res (p_and (S f) ts) (p_and (S (S f)) ts).
Proof. rewrite !u_and. apply le_bind; [apply (Mrel f IH)|intros; apply (Mandl f IH)]. Qed.
Lemma m_rel ts : le_res (p_rel (S f) ts) (p_rel (S (S f)) ts).
Proof. rewrite !u_rel. apply le_bind; [apply (Madd f IH)|intros; apply (Mrell f IH)]. Qed.
Lemma m_add ts : le_res (p_add (S f) ts) (p_add (S (S f)) ts).
Proof. rewrite !u_add. apply le_bind; [apply (Mmul f IH)|intros; apply (Maddl f IH)]. Qed.
Lemma m_mul ts : le_res (p_mul (S f) ts) (p_mul (S (S f)) ts).
Proof. rewrite !u_mul. apply le_bind; [apply (Munary f IH)|intros; apply (Mmull f IH)]. Qed.
Lemma m_member ts : le_res (p_member (S f) ts) (p_member (S (S f)) ts).
Proof. rewrite !u_member. apply le_bind; [apply (Mprimary f IH)|intros; apply (Mpostfix f IH)]. Qed.

Lemma m_or_loop acc ts : le_res (p_or_loop (S f) acc ts) (p_or_loop (S (S f)) acc ts).
Proof.
  rewrite !u_or_loop. destruct ts as [|[] ts]; try apply le_refl.
  apply le_bind; [apply (Mand f IH)|intros; apply (Morl f IH)].
Qed.
Lemma m_and_loop acc ts : le_res (p_and_loop (S f) acc ts) (p_and_loop (S (S f)) acc ts).
Proof.
  rewrite !u_and_loop. destruct ts as [|[] ts]; try apply le_refl.
  apply le_bind; [apply (Mrel f IH)|intros; apply (Mandl f IH)].
Qed.

Lemma m_binloop opn operand operand' loop loop' lhs ts :
  (forall l, le_res (operand l) (operand' l)) -> (forall e l, le_res (loop e l) (loop' e l)) ->
  le_res (binloop opn operand loop lhs ts) (binloop opn operand' loop' lhs ts).
Proof.
  intros Ho Hl. unfold binloop. destruct ts as [|op ts]; [apply le_refl|].
  destruct (opn op); [|apply le_refl]. apply le_bind; [apply Ho|intros; apply Hl].
Qed.

Lemma m_rel_loop lhs ts : le_res (p_rel_loop (S f) lhs ts) (p_rel_loop (S (S f)) lhs ts).
Proof. rewrite !u_rel_loop. apply m_binloop; [apply (Madd f IH)|apply (Mrell f IH)]. Qed.
Lemma m_add_loop lhs ts : le_res (p_add_loop (S f) lhs ts) (p_add_loop (S (S f)) lhs ts).
Proof. rewrite !u_add_loop. apply m_binloop; [apply (Mmul f IH)|apply (Maddl f IH)]. Qed.
Lemma m_mul_loop lhs ts : le_res (p_mul_loop (S f) lhs ts) (p_mul_loop (S (S f)) lhs ts).
Proof. rewrite !u_mul_loop. apply m_binloop; [apply (Munary f IH)|apply (Mmull f IH)]. Qed.

Lemma m_prefix_run P nm ts : le_res (prefix_run P nm f ts) (prefix_run P nm (S f) ts).
Proof. unfold prefix_run. destruct (count_prefix P ts) as [k ts1]. apply le_map, (Mmember f IH). Qed.

Lemma m_unary ts : le_res (p_unary (S f) ts) (p_unary (S (S f)) ts).
Proof.
  rewrite !u_unary. destruct ts as [|[] ts0]; try apply (Mmember f IH).
  - destruct (is_number_tok ts0); [apply (Mmember f IH)|apply m_prefix_run].
  - apply m_prefix_run.
Qed.

Lemma m_postfix e ts : le_res (p_postfix (S f) e ts) (p_postfix (S (S f)) e ts).
Proof.
  rewrite !u_postfix. destruct ts as [|[] ts]; try apply le_refl.
  - assert (D : le_res (index_item f e ts) (index_item (S f) e ts)).
    { apply le_bind; [apply (Mexpr f IH)|]. intros i l.
      destruct l as [|[] l]; try apply le_refl. apply (Mpostfix f IH). }
    destruct ts as [|[] ts]; try exact D. apply le_refl.
  - destruct ts as [|[] ts]; try apply le_refl; try apply (Mpostfix f IH).
    destruct ts as [|[] ts]; try apply (Mpostfix f IH).
    apply le_bind; [apply (Margs f IH)|]. intros args l.
    apply le_bind; [apply le_refl|apply (Mpostfix f IH)].
Qed.

Lemma m_args ts : le_res (p_args (S f) ts) (p_args (S (S f)) ts).
Proof. rewrite !u_args. destruct ts as [|[] ts]; try apply (Margsr f IH). apply le_refl. Qed.

Lemma m_args_rest acc ts : le_res (p_args_rest (S f) acc ts) (p_args_rest (S (S f)) acc ts).
Proof.
  rewrite !u_args_rest. apply le_bind; [apply (Mexpr f IH)|]. intros a l.
  destruct l as [|[] l]; try apply le_refl. apply (Margsr f IH).
Qed.

Lemma m_elems acc ts : le_res (p_elems (S f) acc ts) (p_elems (S (S f)) acc ts).
Proof.
  rewrite !u_elems. assert (D : le_res (elems_item f acc ts) (elems_item (S f) acc ts)).
  { apply le_bind; [apply (Mexpr f IH)|]. intros a l.
    destruct l as [|[] l]; try apply le_refl. apply (Melems f IH). }
  destruct ts as [|[] ts]; try exact D; apply le_refl.
Qed.

Lemma m_entries acc ts : le_res (p_entries (S f) acc ts) (p_entries (S (S f)) acc ts).
Proof.
  rewrite !u_entries. assert (D : le_res (entries_item f acc ts) (entries_item (S f) acc ts)).
  { apply le_bind; [apply (Mexpr f IH)|]. intros k l. destruct l as [|[] l]; try apply le_refl.
    apply le_bind; [apply (Mexpr f IH)|]. intros v l2. destruct l2 as [|[] l2]; try apply le_refl.
    apply (Mentries f IH). }
  destruct ts as [|[] ts]; try exact D; apply le_refl.
Qed.

Lemma m_fields acc ts : le_res (p_fields (S f) acc ts) (p_fields (S (S f)) acc ts).
Proof.
  rewrite !u_fields.
  assert (D : forall n ts1, le_res (fields_item f n acc ts1) (fields_item (S f) n acc ts1)).
  { intros n ts1. apply le_bind; [apply (Mexpr f IH)|]. intros v l.
    destruct l as [|[] l]; try apply le_refl. apply (Mfields f IH). }
  destruct ts as [|[] ts]; try apply le_refl.
  - destruct ts as [|[] ts]; try apply le_refl. apply D.
  - destruct ts as [|[] ts]; try apply le_refl. apply D.
Qed.

Lemma m_ident_forms b ts0 : le_res (ident_forms f b ts0) (ident_forms (S f) b ts0).
Proof.
  unfold ident_forms. destruct (msg_prefix (S (length ts0)) ts0 []) as [[names r]|].
  - assert (D : le_res (msg_lit f b names r) (msg_lit (S f) b names r)) by apply le_map, (Mfields f IH).
    destruct r as [|[] r]; try exact D. destruct r as [|[] r]; try exact D. apply le_refl.
  - destruct ts0 as [|[] ts]; try apply le_refl.
    destruct ts as [|[] ts]; try apply le_refl. apply le_map, (Margs f IH).
Qed.

Lemma m_primary ts : le_res (p_primary (S f) ts) (p_primary (S (S f)) ts).
Proof.
  rewrite !u_primary. destruct ts as [|[] ts]; try apply le_refl; try apply m_ident_forms.
  - assert (D : le_res (list_lit f ts) (list_lit (S f) ts)) by apply le_map, (Melems f IH).
    destruct ts as [|[] ts]; try exact D. destruct ts as [|[] ts]; try exact D. apply le_refl.
  - assert (D : le_res (map_lit f ts) (map_lit (S f) ts)) by apply le_map, (Mentries f IH).
    destruct ts as [|[] ts]; try exact D. destruct ts as [|[] ts]; try exact D. apply le_refl.
  - apply le_map, (Mexpr f IH).
Qed.
End Step.

Lemma all_mono : forall f, MIH f.
Proof.
  induction f as [|f IH].
  - constructor; intros; apply le_fuel.
  - constructor; intros.
    + now apply m_expr. + now apply m_or. + now apply m_and. + now apply m_rel. + now apply m_add.
    + now apply m_mul. + now apply m_unary. + now apply m_member. + now apply m_primary.
    + now apply m_or_loop. + now apply m_and_loop. + now apply m_rel_loop. + now apply m_add_loop.
    + now apply m_mul_loop. + now apply m_postfix. + now apply m_args. + now apply m_args_rest.
    + now apply m_elems. + now apply m_entries. + now apply m_fields.
Qed.

Lemma expr_mono f g ts : f <= g -> le_res (p_expr f ts) (p_expr g ts).
Proof.
  induction 1 as [|g Hle IHle]; [apply le_refl|].
  destruct IHle as [E|E]; [now left|]. rewrite E. apply (Mexpr g (all_mono g)).
Qed.

Theorem parse_tokens_of_ev ts e : ev (fun f => p_expr f ts) (POk e []) -> parse_tokens ts = CExpr e.
Proof.
  intros [n H]. unfold parse_tokens.
  pose proof (parse_never_out_of_fuel ts) as NF. unfold parse_tokens in NF.
  destruct (expr_mono (parse_fuel ts) (Nat.max n (parse_fuel ts)) ts ltac:(lia)) as [E|E].
  - rewrite E in NF. now elim NF.
  - rewrite E, H by lia. reflexivity.
Qed.
Print Assumptions parse_tokens_of_ev.
