(** C09: [==] is symmetric on all values (maps holding each key once, as a HashMap does).
    For numbers of different kinds both directions go through the same
    exact comparison; lists compare element by element; for maps the proof is the counting
    argument: same size, keys pairwise distinct, every entry of the left found in the right -
    then every entry of the right is found in the left. *)
From Cel.Model Require Import Compare.
From Cel.Proofs Require Import BaseFacts ValueFacts CompareProofs.
Open Scope Z_scope.

(** Every map inside the value holds each key once. *)
Fixpoint nodup_maps (v : value) : Prop :=
  match v with
  | VList l => (fix go (l : list value) : Prop :=
                  match l with [] => True | x :: l' => nodup_maps x /\ go l' end) l
  | VMap m => NoDup (map fst m) /\
              (fix go (m : list (key * value)) : Prop :=
                 match m with [] => True | (_, x) :: m' => nodup_maps x /\ go m' end) m
  | VFun _ (Some x) => nodup_maps x
  | _ => True
  end.

(** one direction of the map case, with symmetry available for the entries of either side *)
Lemma map_eq_flip (a b : list (key * value)) :
  NoDup (map fst a) -> NoDup (map fst b) ->
  (forall k v w, In (k, v) a -> In (k, w) b -> v_eq v w = true -> v_eq w v = true) ->
  v_eq (VMap a) (VMap b) = true -> v_eq (VMap b) (VMap a) = true.
Proof.
  intros Na Nb Hs H. apply v_eq_map in H. destruct H as [Hlen Hall]. apply v_eq_map.
  split; [now symmetry|].
  rewrite Forall_forall in Hall.
  assert (Hincl : incl (map fst a) (map fst b)).
  { intros k Hk. apply in_map_iff in Hk. destruct Hk as [[k' v] [<- Hin]].
    destruct (Hall _ Hin) as [v' [Hg _]]. apply assoc_get_in in Hg.
    apply in_map_iff. exists (k', v'). split; [reflexivity|exact Hg]. }
  assert (Hincl' : incl (map fst b) (map fst a)).
  { apply NoDup_length_incl; [exact Na| |exact Hincl]. rewrite !map_length. rewrite Hlen. apply le_n. }
  apply Forall_forall. intros [k w] Hin.
  assert (Hk : In k (map fst a)).
  { apply Hincl'. apply in_map_iff. exists (k, w). split; [reflexivity|exact Hin]. }
  apply in_map_iff in Hk. destruct Hk as [[k' v] [Hkk Hina]]. cbn in Hkk; subst k'.
  exists v. split; [now apply in_assoc_get|].
  destruct (Hall _ Hina) as [v' [Hg He]]. cbn [fst snd] in Hg, He.
  rewrite (in_assoc_get k b w Nb Hin) in Hg. injection Hg as <-.
  eapply Hs; eassumption.
Qed.

Theorem v_eq_sym a : forall b, nodup_maps a -> nodup_maps b -> v_eq a b = v_eq b a.
Proof.
  induction a as [l IH|m IH|n|n x IH|a Ha] using value_ind'; intros b Na Nb.
  - destruct b as [lb| | | | | | | | | | |]; try reflexivity.
    apply (all_go nodup_maps) in Na, Nb. cbn [v_eq].
    revert lb Nb. induction l as [|x l IHl]; intros [|y lb] Nb; try reflexivity.
    inversion IH as [|? ? Hx Hl]; subst. inversion Na as [|? ? Nx Nl]; subst.
    inversion Nb as [|? ? Ny Nlb]; subst.
    rewrite (Hx y Nx Ny). f_equal. now apply IHl.
  - destruct b as [|mb| | | | | | | | | |]; try reflexivity.
    destruct Na as [Na Va], Nb as [Nb Vb]. apply (all_go_snd nodup_maps) in Va, Vb.
    rewrite Forall_forall in IH, Va, Vb.
    assert (S : forall k v w, In (k, v) m -> In (k, w) mb -> v_eq v w = v_eq w v).
    { intros k v w Hi Hj. exact (IH _ Hi w (Va _ Hi) (Vb _ Hj)). }
    destruct (v_eq (VMap m) (VMap mb)) eqn:E1, (v_eq (VMap mb) (VMap m)) eqn:E2; try reflexivity.
    + rewrite (map_eq_flip m mb Na Nb) in E2; [discriminate| |exact E1].
      intros k v w Hi Hj He. now rewrite <- (S k v w Hi Hj).
    + rewrite (map_eq_flip mb m Nb Na) in E1; [discriminate| |exact E2].
      intros k w v Hj Hi He. now rewrite (S k v w Hi Hj).
  - destruct b as [| |n' [y|]| | | | | | | | |]; try reflexivity; cbn [v_eq]; now rewrite str_eqb_sym.
  - destruct b as [| |n' [y|]| | | | | | | | |]; try reflexivity; cbn [v_eq]; rewrite str_eqb_sym;
      [f_equal; now apply IH|reflexivity].
  - (* values of different kinds are unequal both ways; numbers go through [v_cmp] *)
    destruct a; try contradiction; destruct b; try reflexivity; try (apply num_eq_sym; reflexivity);
      cbn [v_eq].
    + apply str_eqb_sym.
    + apply list_eqb_sym, N.eqb_sym.
    + now destruct b0, b.
    + apply Z.eqb_sym.
    + apply Z.eqb_sym.
Qed.

(** The hypothesis is needed: an association list that repeats a key equals, in one direction
    only, a map of the same length that has a key the list lacks. *)
Lemma v_eq_sym_needs_nodup :
  exists a b, v_eq a b = true /\ v_eq b a = false.
Proof.
  exists (VMap [(KInt 1, VInt 0); (KInt 1, VInt 0)]), (VMap [(KInt 1, VInt 0); (KInt 2, VInt 0)]).
  split; reflexivity.
Qed.
