(** Soundness of the parser against the grammar's derivation relation (Model/Grammar.v): what
    [p_expr] consumes is derivable from [expr], and likewise for every parser function and its
    nonterminal; the loops extend a derivation of their level on the right.  One induction on
    the fuel, a statement per function (as in ParserTotal.v). *)
From Cel.Model Require Import Grammar.
From Cel.Proofs Require Import ParserUnfold.
Open Scope nat_scope.

Definition snd_ok {A} (G : list tk -> Prop) (p : pres A) (ts : list tk) : Prop :=
  forall e r, p = POk e r -> exists pre, ts = pre ++ r /\ G pre.
Definition loop_ok {A} (G : list tk -> Prop) (p : pres A) (ts : list tk) : Prop :=
  forall e r, p = POk e r -> exists mid, ts = mid ++ r /\ forall pre, G pre -> G (pre ++ mid).

Definition argsr_close (pre : list tk) : Prop := exists l, GexprList l /\ pre = l ++ [TRParen].
Definition args_close (pre : list tk) : Prop := pre = [TRParen] \/ argsr_close pre.
(** what a list, map or message literal's item parser consumes: the closer [c] alone, or
    items derivable from [Ginit], an optional comma, and the closer *)
Definition close_of (Ginit : list tk -> Prop) (c : tk) (pre : list tk) : Prop :=
  pre = [c] \/ exists l cm, Ginit l /\ optcomma cm /\ pre = l ++ cm ++ [c].

Record SIH (f : nat) : Prop := {
  Sexpr : forall ts, snd_ok Gexpr (p_expr f ts) ts;
  Sor : forall ts, snd_ok Gor (p_or f ts) ts;
  Sand : forall ts, snd_ok Gand (p_and f ts) ts;
  Srel : forall ts, snd_ok Grel (p_rel f ts) ts;
  Sadd : forall ts, snd_ok Gcalc (p_add f ts) ts;
  Smul : forall ts, snd_ok Gcalc (p_mul f ts) ts;
  Sunary : forall ts, snd_ok Gunary (p_unary f ts) ts;
  Smember : forall ts, snd_ok Gmember (p_member f ts) ts;
  Sprimary : forall ts, snd_ok Gprimary (p_primary f ts) ts;
  Sorl : forall acc ts, loop_ok Gor (p_or_loop f acc ts) ts;
  Sandl : forall acc ts, loop_ok Gand (p_and_loop f acc ts) ts;
  Srell : forall l ts, loop_ok Grel (p_rel_loop f l ts) ts;
  Saddl : forall l ts, loop_ok Gcalc (p_add_loop f l ts) ts;
  Smull : forall l ts, loop_ok Gcalc (p_mul_loop f l ts) ts;
  Spostfix : forall e ts, loop_ok Gmember (p_postfix f e ts) ts;
  Sargs : forall ts, snd_ok args_close (p_args f ts) ts;
  Sargsr : forall acc ts, snd_ok argsr_close (p_args_rest f acc ts) ts;
  Selems : forall acc ts, snd_ok (close_of GlistInit TRBracket) (p_elems f acc ts) ts;
  Sentries : forall acc ts, snd_ok (close_of GmapInit TRBrace) (p_entries f acc ts) ts;
  Sfields : forall acc ts, snd_ok (close_of GfieldInit TRBrace) (p_fields f acc ts) ts
}.

(** [leq]: two token lists that differ in the association of [++] only *)
Ltac leq := repeat (progress (rewrite <- ?app_assoc; cbn [app])); reflexivity.
(** done with an immediate result [POk x l = POk e r] *)
Ltac ret H := injection H as <- <-.

Lemma snd_fail {A} G ts : snd_ok G (@PFail A) ts.
Proof. intros e r H. discriminate. Qed.

Lemma snd_now {A} (G : list tk -> Prop) (x : A) pre r : G pre -> snd_ok G (POk x r) (pre ++ r).
Proof. intros Gp e r' H. ret H. now exists pre. Qed.

Lemma snd_weaken {A} (G G' : list tk -> Prop) (p : pres A) ts :
  (forall pre, G pre -> G' pre) -> snd_ok G p ts -> snd_ok G' p ts.
Proof. intros Inj H e r E. destruct (H e r E) as (pre & -> & Gp). exists pre. auto. Qed.

(** a successful [pbind]: the first parser took a prefix derivable from its nonterminal, the
    continuation succeeded on the rest *)
Lemma bind_ok {A B} (G1 : list tk -> Prop) (a : pres A) (k : A -> list tk -> pres B) ts e r :
  snd_ok G1 a ts -> pbind a k = POk e r -> exists x pre l, ts = pre ++ l /\ G1 pre /\ k x l = POk e r.
Proof.
  intros H1 H. destruct a as [x l| |]; try discriminate.
  destruct (H1 x l eq_refl) as (pre & -> & Gp). now exists x, pre, l.
Qed.

Lemma snd_bind {A B} (G1 G : list tk -> Prop) (a : pres A) (k : A -> list tk -> pres B) ts :
  snd_ok G1 a ts -> (forall x pre l, G1 pre -> snd_ok G (k x l) (pre ++ l)) -> snd_ok G (pbind a k) ts.
Proof.
  intros H1 Hk e r H. apply (bind_ok G1 a k ts e r H1) in H as (x & pre & l & -> & Gp & H).
  exact (Hk x pre l Gp e r H).
Qed.

(** head, then loop: the left-associative levels and the postfix forms *)
Lemma head_loop {A} (G1 G2 : list tk -> Prop) (p1 : pres A) (k : A -> list tk -> pres A) ts :
  snd_ok G1 p1 ts -> (forall a, G1 a -> G2 a) ->
  (forall x l, loop_ok G2 (k x l) l) -> snd_ok G2 (pbind p1 k) ts.
Proof.
  intros H1 Inj HL. apply (snd_bind G1); [exact H1|]. intros x pre l Gp e r H.
  destruct (HL x l e r H) as (mid & -> & K). exists (pre ++ mid). split; [leq|apply K, Inj, Gp].
Qed.

(** one more round of a loop: [op item] then the loop again *)
Lemma loop_step {A} (G1 G2 : list tk -> Prop) (op : tk) (p1 : pres A) (k : A -> list tk -> pres A) ts :
  snd_ok G1 p1 ts ->
  (forall pre b, G2 pre -> G1 b -> G2 (pre ++ op :: b)) ->
  (forall x l, loop_ok G2 (k x l) l) ->
  loop_ok G2 (match p1 with POk x l => k x l | PFail => PFail | PFuel => PFuel end) (op :: ts).
Proof.
  intros H1 Ext HL e r H. apply (bind_ok G1 p1 k ts e r H1) in H as (x & b & l & -> & Gb & H).
  destruct (HL x l e r H) as (mid & -> & K).
  exists (op :: b ++ mid). split; [leq|].
  intros pre Gp. replace (pre ++ op :: b ++ mid) with ((pre ++ op :: b) ++ mid) by leq.
  apply K, Ext; assumption.
Qed.
Lemma loop_done {A} (G : list tk -> Prop) (x : A) ts : loop_ok G (POk x ts) ts.
Proof. intros e r H. ret H. exists []. split; [reflexivity|]. intros pre Gp. now rewrite app_nil_r. Qed.

Lemma s_binloop (G1 G2 : list tk -> Prop) opn operand loop lhs ts :
  (forall l, snd_ok G1 (operand l) l) ->
  (forall op n pre b, opn op = Some n -> G2 pre -> G1 b -> G2 (pre ++ op :: b)) ->
  (forall e l, loop_ok G2 (loop e l) l) ->
  loop_ok G2 (binloop opn operand loop lhs ts) ts.
Proof.
  intros Ho Ext Hl. unfold binloop. destruct ts as [|t ts]; [apply loop_done|].
  destruct (opn t) as [n|] eqn:N; [|apply loop_done].
  apply (loop_step G1 G2 t (operand ts) (fun r l => loop (ECall n None [lhs; r]) l));
    [apply Ho|intros pre b; apply (Ext t n pre b N)|intros; apply Hl].
Qed.

Lemma close_last {A} (Ginit : list tk -> Prop) c pi (x : A) r :
  Ginit pi -> snd_ok (close_of Ginit c) (POk x r) (pi ++ c :: r).
Proof.
  intros Gi. replace (pi ++ c :: r) with ((pi ++ [] ++ [c]) ++ r) by leq.
  apply snd_now. right. exists pi, []. split; [exact Gi|]. split; [now left|reflexivity].
Qed.
Lemma close_more {A} (Ginit : list tk -> Prop) c pi (p : pres A) l :
  Ginit pi -> (forall l1, Ginit l1 -> Ginit (pi ++ TComma :: l1)) ->
  snd_ok (close_of Ginit c) p l -> snd_ok (close_of Ginit c) p (pi ++ TComma :: l).
Proof.
  intros Gi Gm H e r E. destruct (H e r E) as (pre & -> & [->|(l1 & cm & G1 & Oc & ->)]).
  - exists (pi ++ [TComma] ++ [c]). split; [leq|]. right. exists pi, [TComma].
    split; [exact Gi|]. split; [now right|reflexivity].
  - exists ((pi ++ TComma :: l1) ++ cm ++ [c]). split; [leq|]. right. exists (pi ++ TComma :: l1), cm. auto.
Qed.

(** a literal: opener, then the closer alone or items, an optional comma and the closer *)
Lemma bracketed {A B} (Ginit G : list tk -> Prop) op c (p : pres A) (g : A -> B) ts :
  (forall cm, optcomma cm -> G (op ++ cm ++ [c])) ->
  (forall l cm, Ginit l -> optcomma cm -> G (op ++ l ++ cm ++ [c])) ->
  snd_ok (close_of Ginit c) p ts -> snd_ok G (pbind p (fun x => POk (g x))) (op ++ ts).
Proof.
  intros G0 Gl H e r E. destruct p as [x l| |]; try discriminate. cbn [pbind] in E. ret E.
  destruct (H x l eq_refl) as (pre & -> & [->|(l1 & cm & G1 & Oc & ->)]).
  - exists (op ++ [] ++ [c]). split; [leq|]. apply G0. now left.
  - exists (op ++ l1 ++ cm ++ [c]). split; [leq|]. now apply Gl.
Qed.

Section Step.
Variable f : nat.
Hypothesis IH : SIH f.

Lemma s_expr ts : snd_ok Gexpr (p_expr (S f) ts) ts.
Proof.
  rewrite u_expr. apply (snd_bind Gor); [apply (Sor f IH)|]. intros c p1 l G1.
  assert (D : snd_ok Gexpr (POk c l) (p1 ++ l)) by (apply snd_now; now constructor).
  destruct l as [|[] l]; try exact D. clear D. intros e r H.
  apply (bind_ok Gor _ _ l e r (Sor f IH l)) in H as (a & p2 & l2 & -> & G2 & H).
  destruct l2 as [|[] l2]; try discriminate.
  apply (bind_ok Gexpr _ _ l2 e r (Sexpr f IH l2)) in H as (b & p3 & l3 & -> & G3 & H). ret H.
  exists (p1 ++ TQuestion :: p2 ++ TColon :: p3). split; [leq|now constructor].
Qed.

Lemma s_or ts : snd_ok Gor (p_or (S f) ts) ts.
Proof.
  rewrite u_or. apply (head_loop Gand); [apply (Sand f IH)|intros; now constructor|intros; apply (Sorl f IH)].
Qed.
Lemma s_and ts : snd_ok Gand (p_and (S f) ts) ts.
Proof.
  rewrite u_and. apply (head_loop Grel); [apply (Srel f IH)|intros; now constructor|intros; apply (Sandl f IH)].
Qed.
Lemma s_rel ts : snd_ok Grel (p_rel (S f) ts) ts.
Proof.
  rewrite u_rel. apply (head_loop Gcalc); [apply (Sadd f IH)|intros; now constructor|intros; apply (Srell f IH)].
Qed.
Lemma s_add ts : snd_ok Gcalc (p_add (S f) ts) ts.
Proof. rewrite u_add. apply (head_loop Gcalc); [apply (Smul f IH)|auto|intros; apply (Saddl f IH)]. Qed.
Lemma s_mul ts : snd_ok Gcalc (p_mul (S f) ts) ts.
Proof.
  rewrite u_mul. apply (head_loop Gunary); [apply (Sunary f IH)|intros; now constructor|intros; apply (Smull f IH)].
Qed.
Lemma s_member ts : snd_ok Gmember (p_member (S f) ts) ts.
Proof.
  rewrite u_member.
  apply (head_loop Gprimary); [apply (Sprimary f IH)|intros; now constructor|intros; apply (Spostfix f IH)].
Qed.

Lemma s_or_loop acc ts : loop_ok Gor (p_or_loop (S f) acc ts) ts.
Proof.
  rewrite u_or_loop. destruct ts as [|[] ts]; try apply loop_done.
  apply (loop_step Gand Gor TOrOr (p_and f ts) (fun t l => p_or_loop f (t :: acc) l));
    [apply (Sand f IH)|intros; now constructor|intros; apply (Sorl f IH)].
Qed.
Lemma s_and_loop acc ts : loop_ok Gand (p_and_loop (S f) acc ts) ts.
Proof.
  rewrite u_and_loop. destruct ts as [|[] ts]; try apply loop_done.
  apply (loop_step Grel Gand TAndAnd (p_rel f ts) (fun t l => p_and_loop f (t :: acc) l));
    [apply (Srel f IH)|intros; now constructor|intros; apply (Sandl f IH)].
Qed.
Lemma s_rel_loop lhs ts : loop_ok Grel (p_rel_loop (S f) lhs ts) ts.
Proof.
  rewrite u_rel_loop. apply (s_binloop Gcalc Grel); [apply (Sadd f IH)| |apply (Srell f IH)].
  intros op n pre b N Gp Gb. eapply GR_op; eauto. now constructor.
Qed.
Lemma s_add_loop lhs ts : loop_ok Gcalc (p_add_loop (S f) lhs ts) ts.
Proof.
  rewrite u_add_loop. apply (s_binloop Gcalc Gcalc); [apply (Smul f IH)| |apply (Saddl f IH)].
  intros op n pre b N Gp Gb. eapply GC_add; eauto.
Qed.
Lemma s_mul_loop lhs ts : loop_ok Gcalc (p_mul_loop (S f) lhs ts) ts.
Proof.
  rewrite u_mul_loop. apply (s_binloop Gunary Gcalc); [apply (Sunary f IH)| |apply (Smull f IH)].
  intros op n pre b N Gp Gb. eapply GC_mul; eauto. now constructor.
Qed.

Lemma s_prefix_run (P : tk -> bool) t0 nm t ts0 :
  (forall k m, Gmember m -> Gunary (repeat t0 (S k) ++ m)) -> P t = true -> (forall x, P x = true -> x = t0) ->
  snd_ok Gunary (prefix_run P nm f (t :: ts0)) (t :: ts0).
Proof.
  intros C Pt HP. unfold prefix_run. destruct (count_prefix_pos P t ts0 Pt) as (k & ts1 & E).
  destruct (count_prefix_spec P (t :: ts0)) as (pre & Ep & L & F). rewrite E in *. cbn [fst snd] in *.
  assert (pre = repeat t0 (S k)) as ->.
  { rewrite <- L. apply Forall_eq_repeat. eapply Forall_impl; [|exact F]. intros x Hx. symmetry. now apply HP. }
  rewrite Ep.
  intros e r H. apply (bind_ok Gmember _ _ ts1 e r (Smember f IH ts1)) in H as (m & pm & l & -> & G & H). ret H.
  exists (repeat t0 (S k) ++ pm). split; [leq|now apply C].
Qed.

Lemma s_unary ts : snd_ok Gunary (p_unary (S f) ts) ts.
Proof.
  rewrite u_unary.
  assert (D : snd_ok Gunary (p_member f ts) ts).
  { apply (snd_weaken Gmember); [intros; now constructor|apply (Smember f IH)]. }
  destruct ts as [|[] ts0]; try exact D.
  - destruct (is_number_tok ts0); [exact D|].
    apply (s_prefix_run is_minus TMinus); [intros; now constructor|reflexivity|exact is_minus_eq].
  - apply (s_prefix_run is_bang TBang); [intros; now constructor|reflexivity|exact is_bang_eq].
Qed.

(** a postfix segment followed by the postfix loop again *)
Lemma postfix_step seg e' ts1 :
  (forall pre, Gmember pre -> Gmember (pre ++ seg)) ->
  loop_ok Gmember (p_postfix f e' ts1) (seg ++ ts1).
Proof.
  intros Ext e r H. apply (Spostfix f IH) in H as (mid & -> & K).
  exists (seg ++ mid). split; [leq|].
  intros pre Gp. replace (pre ++ seg ++ mid) with ((pre ++ seg) ++ mid) by leq. apply K, Ext, Gp.
Qed.

Lemma s_postfix e ts : loop_ok Gmember (p_postfix (S f) e ts) ts.
Proof.
  rewrite u_postfix. destruct ts as [|[] ts]; try apply loop_done.
  - assert (D : loop_ok Gmember (index_item f e ts) (TLBracket :: ts)).
    { intros e0 r H. apply (bind_ok Gexpr _ _ ts e0 r (Sexpr f IH ts)) in H as (i & pi & l & -> & Gi & H).
      destruct l as [|[] l]; try discriminate.
      replace (TLBracket :: pi ++ TRBracket :: l) with ((TLBracket :: pi ++ [TRBracket]) ++ l) by leq.
      revert e0 r H. apply postfix_step. intros pre Gp.
      apply (GM_index pre [] pi Gp); [now left|exact Gi]. }
    destruct ts as [|[] ts]; try exact D. intros e0 r H; discriminate.
  - destruct ts as [|[] ts]; try apply loop_done.
    + assert (D : forall ts, loop_ok Gmember (p_postfix f (ESelect e text false) ts) (TDot :: TIdent text :: ts)).
      { intros ts'. apply (postfix_step [TDot; TIdent text]). intros pre Gp.
        apply (GM_select pre [] (TIdent text) Gp); [now left|constructor]. }
      destruct ts as [|[] ts]; try apply D.
      intros e0 r H. apply (bind_ok args_close _ _ ts e0 r (Sargs f IH ts)) in H as (args & pa & l & -> & Ga & H).
      destruct (mk_call_cases text (Some e) args l) as [M|[e' M]]; rewrite M in H; [discriminate|]. cbn [pbind] in H.
      replace (TDot :: TIdent text :: TLParen :: pa ++ l) with ((TDot :: TIdent text :: TLParen :: pa) ++ l) by leq.
      revert e0 r H. apply postfix_step. intros pre Gp.
      destruct Ga as [->|(la & Gl & ->)]; [now apply GM_call0|now apply GM_call].
    + apply (postfix_step [TDot; TEscIdent text]). intros pre Gp.
      apply (GM_select pre [] (TEscIdent text) Gp); [now left|constructor].
Qed.

Lemma s_args ts : snd_ok args_close (p_args (S f) ts) ts.
Proof.
  rewrite u_args.
  assert (D : snd_ok args_close (p_args_rest f [] ts) ts).
  { apply (snd_weaken argsr_close); [intros pre G; now right|apply (Sargsr f IH)]. }
  destruct ts as [|[] ts]; try exact D. apply (snd_now args_close [] [TRParen]). now left.
Qed.

Lemma s_args_rest acc ts : snd_ok argsr_close (p_args_rest (S f) acc ts) ts.
Proof.
  rewrite u_args_rest. intros e r H.
  apply (bind_ok Gexpr _ _ ts e r (Sexpr f IH ts)) in H as (a & pa & l & -> & Ga & H).
  destruct l as [|[] l]; try discriminate.
  - ret H. exists (pa ++ [TRParen]). split; [leq|]. exists pa. split; [now constructor|reflexivity].
  - apply (Sargsr f IH) in H as (pre & -> & (l1 & G1 & ->)).
    exists ((pa ++ TComma :: l1) ++ [TRParen]). split; [leq|]. eexists. split; [apply GL_more; eassumption|reflexivity].
Qed.

Lemma s_elems acc ts : snd_ok (close_of GlistInit TRBracket) (p_elems (S f) acc ts) ts.
Proof.
  rewrite u_elems.
  assert (D : snd_ok (close_of GlistInit TRBracket) (elems_item f acc ts) ts).
  { apply (snd_bind Gexpr); [apply (Sexpr f IH)|]. intros a pa l Ga.
    assert (Gi : GlistInit pa) by (apply (GLI_one [] pa); [now left|exact Ga]).
    destruct l as [|[] l]; try apply snd_fail.
    - now apply close_last.
    - apply close_more; [exact Gi| |apply (Selems f IH)].
      intros l1 G1. apply (GLI_more [] pa l1); [now left|exact Ga|exact G1]. }
  destruct ts as [|[] ts]; try exact D; [|apply snd_fail].
  apply (snd_now _ _ [TRBracket]). now left.
Qed.

Lemma s_entries acc ts : snd_ok (close_of GmapInit TRBrace) (p_entries (S f) acc ts) ts.
Proof.
  rewrite u_entries.
  assert (D : snd_ok (close_of GmapInit TRBrace) (entries_item f acc ts) ts).
  { apply (snd_bind Gexpr); [apply (Sexpr f IH)|]. intros k pk l Gk.
    destruct l as [|[] l]; try apply snd_fail.
    intros e r H. apply (bind_ok Gexpr _ _ l e r (Sexpr f IH l)) in H as (v & pv & l2 & -> & Gv & H).
    assert (Gi : GmapInit (pk ++ TColon :: pv)) by (apply (GMI_one [] pk pv); [now left|exact Gk|exact Gv]).
    replace (pk ++ TColon :: pv ++ l2) with ((pk ++ TColon :: pv) ++ l2) by leq.
    revert e r H. destruct l2 as [|[] l2]; try apply snd_fail.
    - now apply close_last.
    - apply close_more; [exact Gi| |apply (Sentries f IH)].
      intros l1 G1. rewrite <- app_assoc. apply (GMI_more [] pk pv l1); [now left|exact Gk|exact Gv|exact G1]. }
  destruct ts as [|[] ts]; try exact D; [|apply snd_fail].
  apply (snd_now _ _ [TRBrace]). now left.
Qed.

Lemma s_fields_item id n acc ts :
  Gesc id -> snd_ok (close_of GfieldInit TRBrace) (fields_item f n acc ts) (id :: TColon :: ts).
Proof.
  intros Gid e r H. apply (bind_ok Gexpr _ _ ts e r (Sexpr f IH ts)) in H as (v & pv & l & -> & Gv & H).
  assert (Gi : GfieldInit (id :: TColon :: pv)) by (apply (GFI_one [] id pv); [now left|exact Gid|exact Gv]).
  replace (id :: TColon :: pv ++ l) with ((id :: TColon :: pv) ++ l) by leq.
  revert e r H. destruct l as [|[] l]; try apply snd_fail.
  - now apply close_last.
  - apply close_more; [exact Gi| |apply (Sfields f IH)].
    intros l1 G1. apply (GFI_more [] id pv l1); [now left|exact Gid|exact Gv|exact G1].
Qed.

Lemma s_fields acc ts : snd_ok (close_of GfieldInit TRBrace) (p_fields (S f) acc ts) ts.
Proof.
  rewrite u_fields. destruct ts as [|[] ts]; try apply snd_fail.
  - apply (snd_now _ _ [TRBrace]). now left.
  - destruct ts as [|[] ts]; try apply snd_fail. apply s_fields_item. constructor.
  - destruct ts as [|[] ts]; try apply snd_fail. apply s_fields_item. constructor.
Qed.

Lemma s_ident_forms b ts0 :
  snd_ok (fun pre => forall d, optdot d -> Gprimary (d ++ pre)) (ident_forms f b ts0) ts0.
Proof.
  unfold ident_forms. destruct (msg_prefix (S (length ts0)) ts0 []) as [[names r0]|] eqn:M.
  - apply msg_prefix_spec in M as (ids & -> & Gi).
    replace (ids ++ TLBrace :: r0) with ((ids ++ [TLBrace]) ++ r0) by leq.
    assert (D : snd_ok (fun pre => forall d, optdot d -> Gprimary (d ++ pre)) (msg_lit f b names r0) ((ids ++ [TLBrace]) ++ r0)).
    { apply (bracketed GfieldInit _ _ TRBrace); [| |apply (Sfields f IH)].
      - intros cm Oc d Od. rewrite <- app_assoc. now apply GP_msg0.
      - intros l cm Gl Oc d Od. rewrite <- app_assoc. now apply GP_msg. }
    destruct r0 as [|[] r0]; try exact D. destruct r0 as [|[] r0]; try exact D.
    replace ((ids ++ [TLBrace]) ++ TComma :: TRBrace :: r0) with ((ids ++ TLBrace :: [TComma] ++ [TRBrace]) ++ r0) by leq.
    apply snd_now. intros d Od. apply GP_msg0; auto. now right.
  - unfold call_or_ident. destruct ts0 as [|[] ts]; try apply snd_fail.
    assert (D : forall x : expr, snd_ok (fun pre => forall d, optdot d -> Gprimary (d ++ pre)) (POk x ts) (TIdent text :: ts)).
    { intros x. apply (snd_now _ _ [TIdent text]). intros d Od. now apply GP_ident. }
    destruct ts as [|[] ts]; try apply D. clear D.
    intros e r H. apply (bind_ok args_close _ _ ts e r (Sargs f IH ts)) in H as (args & pa & l & -> & Ga & H).
    destruct (mk_call_cases (if b then 46%N :: text else text) None args l) as [K|[e' K]]; rewrite K in H; [discriminate|].
    ret H. exists (TIdent text :: TLParen :: pa). split; [leq|]. intros d Od.
    destruct Ga as [->|(la & Gl & ->)]; [now apply GP_call0|now apply GP_call].
Qed.

Lemma s_primary ts : snd_ok Gprimary (p_primary (S f) ts) ts.
Proof.
  rewrite u_primary.
  assert (L : snd_ok Gprimary (lit_body ts) ts).
  { intros e r H. unfold lit_body in H. destruct (literal_of ts) as [[e0 r0]|] eqn:E; [|discriminate]. ret H.
    apply literal_of_spec in E as (pre & -> & G). exists pre. split; [reflexivity|now apply GP_literal]. }
  destruct ts as [|[] ts]; try exact L.
  - assert (D : snd_ok Gprimary (list_lit f ts) ([TLBracket] ++ ts)).
    { apply (bracketed GlistInit _ _ TRBracket); [exact GP_list0|exact GP_list|apply (Selems f IH)]. }
    destruct ts as [|[] ts]; try exact D. destruct ts as [|[] ts]; try exact D.
    apply (snd_now _ _ (TLBracket :: [TComma] ++ [TRBracket])). apply GP_list0. now right.
  - assert (D : snd_ok Gprimary (map_lit f ts) ([TLBrace] ++ ts)).
    { apply (bracketed GmapInit _ _ TRBrace); [exact GP_map0|exact GP_map|apply (Sentries f IH)]. }
    destruct ts as [|[] ts]; try exact D. destruct ts as [|[] ts]; try exact D.
    apply (snd_now _ _ (TLBrace :: [TComma] ++ [TRBrace])). apply GP_map0. now right.
  - intros e r H. apply (bind_ok Gexpr _ _ ts e r (Sexpr f IH ts)) in H as (e0 & pe & l & -> & Ge & H).
    destruct l as [|[] l]; try discriminate. ret H.
    exists (TLParen :: pe ++ [TRParen]). split; [leq|]. now apply GP_nested.
  - intros e r H. apply s_ident_forms in H as (pre & -> & G).
    exists ([TDot] ++ pre). split; [reflexivity|]. apply G. now right.
  - intros e r H. apply s_ident_forms in H as (pre & E & G).
    exists pre. split; [exact E|]. apply (G []). now left.
Qed.
End Step.

Lemma all_sound : forall f, SIH f.
Proof.
  induction f as [|f IH].
  - constructor; intros; intros ? ? H; discriminate.
  - constructor; intros.
    + now apply s_expr. + now apply s_or. + now apply s_and. + now apply s_rel. + now apply s_add.
    + now apply s_mul. + now apply s_unary. + now apply s_member. + now apply s_primary.
    + now apply s_or_loop. + now apply s_and_loop. + now apply s_rel_loop. + now apply s_add_loop.
    + now apply s_mul_loop. + now apply s_postfix. + now apply s_args. + now apply s_args_rest.
    + now apply s_elems. + now apply s_entries. + now apply s_fields.
Qed.

(** Whatever the parser accepts is derivable from the grammar's start rule: all tokens, no
    leftovers. *)
Theorem parse_sound ts e : parse_tokens ts = CExpr e -> Gstart ts.
Proof.
  unfold parse_tokens. destruct (p_expr (parse_fuel ts) ts) as [e0 r| |] eqn:E; try discriminate.
  destruct r; [|discriminate]. intros _.
  apply (Sexpr _ (all_sound _)) in E as (pre & -> & G). now rewrite app_nil_r.
Qed.

Theorem compile_sound src e : compile src = CExpr e -> exists ts, lex src = Some ts /\ Gstart ts.
Proof.
  unfold compile. destruct (lex src) as [ts|]; [|discriminate]. intros H. exists ts. split; [reflexivity|].
  eapply parse_sound, H.
Qed.
