(** C09: SpecFloat's comparison of two valid doubles is the comparison of the numbers they denote;
    with it, exactness and transitivity for every pair of numbers, and max over numbers.
    Every 64-bit pattern decodes to a valid double. *)
From Coq Require Import ZArith QArith Lia Floats.SpecFloat.
From Cel.Model Require Import Compare.
From Cel.Proofs Require Import CompareProofs.
Open Scope Z_scope.

Definition fvalid (f : f64) : Prop := valid_binary prec emax f = true.

Lemma digits2_pos_bounds m : 2 ^ (Zpos (digits2_pos m) - 1) <= Zpos m < 2 ^ Zpos (digits2_pos m).
Proof.
  induction m as [p IH|p IH|]; cbn [digits2_pos]; [| |cbn; lia].
  all: rewrite Pos2Z.inj_succ; replace (Z.succ (Zpos (digits2_pos p)) - 1) with (Zpos (digits2_pos p)) by lia;
    rewrite Z.pow_succ_r by lia;
    replace (Zpos (digits2_pos p)) with (Z.succ (Zpos (digits2_pos p) - 1)) at 1 by lia;
    rewrite Z.pow_succ_r by lia; lia.
Qed.

(** For binary64 ([prec] = 53, [emax] = 1024): [emin] = 3 - emax - prec = -1074 and the largest
    exponent is emax - prec = 971. *)
Lemma bounded_iff m e : bounded prec emax m e = true <->
  Z.max (Zpos (digits2_pos m) + e - 53) (-1074) = e /\ e <= 971.
Proof.
  unfold bounded, canonical_mantissa, fexp, emin, prec, emax.
  rewrite andb_true_iff, <- Zeq_is_eq_bool, Z.leb_le. reflexivity.
Qed.

Lemma bounded_facts m e : bounded prec emax m e = true ->
  Zpos m < 2 ^ 53 /\ -1074 <= e /\ (-1074 < e -> 2 ^ 52 <= Zpos m).
Proof.
  intros H. apply bounded_iff in H as [H _].
  pose proof (digits2_pos_bounds m) as [B1 B2]. set (d := Zpos (digits2_pos m)) in *.
  assert (Hd : d <= 53) by lia.
  split; [|split].
  - eapply Z.lt_le_trans; [exact B2|]. apply Z.pow_le_mono_r; lia.
  - lia.
  - intros He. assert (d = 53) by lia. replace 52 with (d - 1) by lia. exact B1.
Qed.

(** [smant s m] is the signed mantissa, the [v] of [Qval];
    [scaled b (smant s m) e] is the value of the finite double (s, m, e) in units of 2^b: an integer
    when b <= e, so that two doubles are compared as integers at a common b. *)
Definition smant (s : bool) (m : positive) : Z := if s then Zneg m else Zpos m.
Definition scaled (b : Z) (v e : Z) : Z := v * 2 ^ (e - b).

Lemma Qval_scaled s m e b : b <= e -> b <= 0 ->
  Qnum (Qval (S754_finite s m e)) * 2 ^ (- b) = scaled b (smant s m) e * Zpos (Qden (Qval (S754_finite s m e))).
Proof.
  intros Hb H0. unfold scaled. cbn [Qval]. destruct e as [|p|p]; cbn [Qnum Qden inject_Z].
  - rewrite Z.mul_1_r. reflexivity.
  - change (Z.pow_pos 2 p) with (2 ^ Zpos p). rewrite Z.mul_1_r, <- Z.mul_assoc, <- Z.pow_add_r by lia. f_equal.
  - rewrite Pos2Z.inj_pow, <- Z.mul_assoc, <- Z.pow_add_r by lia. f_equal. f_equal. lia.
Qed.

Lemma compare_scaled n1 d1 s1 n2 d2 s2 P : 0 < P -> 0 < d1 -> 0 < d2 ->
  n1 * P = s1 * d1 -> n2 * P = s2 * d2 -> (n1 * d2 ?= n2 * d1) = (s1 ?= s2).
Proof.
  intros HP H1 H2 E1 E2.
  rewrite (Zmult_compare_compat_r (n1 * d2) (n2 * d1) P) by lia.
  replace (n1 * d2 * P) with (n1 * P * d2) by ring. replace (n2 * d1 * P) with (n2 * P * d1) by ring.
  rewrite E1, E2. replace (s1 * d1 * d2) with (s1 * (d1 * d2)) by ring. replace (s2 * d2 * d1) with (s2 * (d1 * d2)) by ring.
  symmetry. apply Zmult_compare_compat_r, Z.lt_gt, Z.mul_pos_pos; assumption.
Qed.

Lemma Qcompare_scaled s1 m1 e1 s2 m2 e2 b : b <= e1 -> b <= e2 -> b <= 0 ->
  Qcompare (Qval (S754_finite s1 m1 e1)) (Qval (S754_finite s2 m2 e2)) = (scaled b (smant s1 m1) e1 ?= scaled b (smant s2 m2) e2).
Proof.
  intros H1 H2 H0. unfold Qcompare.
  apply (compare_scaled _ _ _ _ _ _ (2 ^ (- b))); try apply Pos2Z.pos_is_pos; [apply Z.pow_pos_nonneg; lia| |];
    now apply Qval_scaled.
Qed.

(** positive magnitudes of valid doubles are ordered by (exponent, mantissa) *)
Lemma mag_order m1 e1 m2 e2 b : bounded prec emax m1 e1 = true -> bounded prec emax m2 e2 = true ->
  b <= e1 -> b <= e2 ->
  (Zpos m1 * 2 ^ (e1 - b) ?= Zpos m2 * 2 ^ (e2 - b)) =
  match e1 ?= e2 with Lt => Lt | Gt => Gt | Eq => Pos.compare m1 m2 end.
Proof.
  intros B1 B2 H1 H2.
  destruct (bounded_facts m1 e1 B1) as (U1 & L1 & N1). destruct (bounded_facts m2 e2 B2) as (U2 & L2 & N2).
  assert (Key : forall ma ea mb eb, Zpos ma < 2 ^ 53 -> 2 ^ 52 <= Zpos mb -> b <= ea -> ea < eb ->
                Zpos ma * 2 ^ (ea - b) < Zpos mb * 2 ^ (eb - b)).
  { intros ma ea mb eb Ua Nb Ha Hab.
    replace (eb - b) with ((ea - b) + (eb - ea)) by lia. rewrite Z.pow_add_r by lia.
    assert (2 <= 2 ^ (eb - ea)) by (change 2 with (2 ^ 1) at 1; apply Z.pow_le_mono_r; lia).
    assert (0 < 2 ^ (ea - b)) by (apply Z.pow_pos_nonneg; lia).
    change (2 ^ 53) with (2 * 2 ^ 52) in Ua. set (c := 2 ^ 52) in *. set (X := 2 ^ (ea - b)) in *. set (Y := 2 ^ (eb - ea)) in *.
    clearbody c X Y.
    assert (S1 : Zpos ma * X < 2 * c * X) by (apply Z.mul_lt_mono_pos_r; lia).
    assert (S2 : 2 * c * X <= 2 * Zpos mb * X) by (apply Z.mul_le_mono_nonneg_r; lia).
    assert (S3 : 2 * (Zpos mb * X) <= Y * (Zpos mb * X)) by (apply Z.mul_le_mono_nonneg_r; [apply Z.mul_nonneg_nonneg|]; lia).
    lia. }
  destruct (Z.compare_spec e1 e2) as [E|E|E].
  - subst e2. rewrite <- Zmult_compare_compat_r by (apply Z.lt_gt, Z.pow_pos_nonneg; lia). reflexivity.
  - apply Z.compare_lt_iff. apply Key; auto. apply N2. lia.
  - apply Z.compare_gt_iff. apply Key; auto. apply N1. lia.
Qed.

Lemma fcmp_finite s1 m1 e1 s2 m2 e2 :
  bounded prec emax m1 e1 = true -> bounded prec emax m2 e2 = true ->
  fcmp (S754_finite s1 m1 e1) (S754_finite s2 m2 e2) =
  Some (Qcompare (Qval (S754_finite s1 m1 e1)) (Qval (S754_finite s2 m2 e2))).
Proof.
  intros B1 B2. set (b := Z.min (Z.min e1 e2) 0).
  rewrite (Qcompare_scaled s1 m1 e1 s2 m2 e2 b) by lia.
  pose proof (mag_order m1 e1 m2 e2 b B1 B2 ltac:(lia) ltac:(lia)) as M.
  assert (P1 : 0 < 2 ^ (e1 - b)) by (apply Z.pow_pos_nonneg; lia).
  assert (P2 : 0 < 2 ^ (e2 - b)) by (apply Z.pow_pos_nonneg; lia).
  unfold fcmp, SFcompare, scaled, smant. f_equal. destruct s1, s2.
  - (* both negative: the order of the magnitudes reversed *)
    rewrite <- !Pos2Z.opp_pos, !Z.mul_opp_l, Z.compare_opp,
      (Z.compare_antisym (Zpos m1 * 2 ^ (e1 - b)) (Zpos m2 * 2 ^ (e2 - b))), M.
    destruct (e1 ?= e2); cbn [CompOpp]; reflexivity.
  - symmetry. apply Z.compare_lt_iff, Z.lt_trans with 0; [apply Z.mul_neg_pos|apply Z.mul_pos_pos]; lia.
  - symmetry. apply Z.compare_gt_iff, Z.lt_trans with 0; [apply Z.mul_neg_pos|apply Z.mul_pos_pos]; lia.
  - rewrite M. destruct (e1 ?= e2); reflexivity.
Qed.

Lemma Qcompare_0_fin s m e : Qcompare 0 (Qval (S754_finite s m e)) = if s then Gt else Lt.
Proof.
  unfold Qcompare. cbn [Qnum Qden Qval]. rewrite Z.mul_0_l, Z.mul_1_r.
  destruct s; [apply Z.compare_gt_iff|apply Z.compare_lt_iff]; destruct e; cbn [Qnum inject_Z]; lia.
Qed.

Theorem fcmp_exact f g : fvalid f -> fvalid g -> fcmp f g = xcmp (fden f) (fden g).
Proof.
  unfold fvalid. intros Vf Vg.
  destruct f as [sf|sf| |sf mf ef], g as [sg|sg| |sg mg eg]; cbn [fden xcmp valid_binary] in *;
    try reflexivity.
  - unfold fcmp, SFcompare. f_equal. change (Qval (S754_zero sf)) with 0%Q. now rewrite Qcompare_0_fin.
  - unfold fcmp, SFcompare. f_equal. change (Qval (S754_zero sg)) with 0%Q.
    rewrite <- Qcompare_antisym, Qcompare_0_fin. now destruct sf.
  - now apply fcmp_finite.
Qed.

Definition vvalid (v : value) : Prop := match v with VDbl f => fvalid f | _ => True end.

Theorem cmp_exact_all a b da db : vvalid a -> vvalid b ->
  den a = Some da -> den b = Some db -> v_cmp a b = xcmp da db.
Proof.
  intros Va Vb Ha Hb. destruct (is_dbl a && is_dbl b) eqn:D; [|now apply cmp_exact].
  destruct a, b; try discriminate. rewrite den_dbl in Ha, Hb. injection Ha as <-. injection Hb as <-.
  now apply fcmp_exact.
Qed.

Theorem eq_exact_all a b da db : vvalid a -> vvalid b ->
  den a = Some da -> den b = Some db ->
  v_eq a b = match xcmp da db with Some Eq => true | _ => false end.
Proof. intros Va Vb Ha Hb. exact (eq_of_cmp a b da db Ha Hb (cmp_exact_all a b da db Va Vb Ha Hb)). Qed.

Lemma bool_cmp_trans x y z : bool_cmp x y = Lt -> bool_cmp y z = Lt -> bool_cmp x z = Lt.
Proof. destruct x, y, z; cbn; congruence. Qed.

(** Transitivity of < wherever it is defined (doubles being IEEE doubles): comparable values
    have the same kind; numbers go through the numbers denoted. *)
Theorem cmp_trans a b c : vvalid a -> vvalid b -> vvalid c ->
  v_cmp a b = Some Lt -> v_cmp b c = Some Lt -> v_cmp a c = Some Lt.
Proof.
  intros Va Vb Vc H1 H2. pose proof (cmp_kind _ _ _ H1) as K1. pose proof (cmp_kind _ _ _ H2) as K2.
  destruct (den a) as [da|] eqn:Da.
  { destruct (same_kind_den a b da K1 Da) as [db Db], (same_kind_den b c db K2 Db) as [dc Dc].
    rewrite (cmp_exact_all a b da db) in H1 by assumption. rewrite (cmp_exact_all b c db dc) in H2 by assumption.
    rewrite (cmp_exact_all a c da dc) by assumption. exact (xcmp_lt_trans _ _ _ H1 H2). }
  destruct a; try discriminate Da; destruct b; try discriminate K1; try discriminate H1;
    destruct c; try discriminate K2; cbn [v_cmp] in *; injection H1 as H1; injection H2 as H2; f_equal.
  - exact (str_cmp_trans _ _ _ H1 H2).
  - exact (bool_cmp_trans _ _ _ H1 H2).
  - exact (Z.lt_trans _ _ _ H1 H2).
  - exact (Z.lt_trans _ _ _ H1 H2).
Qed.

(** What [max_numbers] asks of the elements: int, uint, valid double mixed freely; no NaN. *)
Definition num_ok (v : value) : Prop := vvalid v /\ exists d, den v = Some d /\ d <> XNaN.

Theorem max_numbers l m : l <> [] -> Forall num_ok l -> pick_list Gt l = Ok m ->
  In m l /\ forall x, In x l -> le_or_eq (v_cmp x m).
Proof.
  destruct l as [|a l]; [congruence|]. intros _. apply (fold_pick_max_spec num_ok).
  - intros x y z (Vx & dx & Ex & _) (Vy & dy & Ey & _) (Vz & dz & Ez & _).
    rewrite (cmp_exact_all x y dx dy), (cmp_exact_all y z dy dz), (cmp_exact_all x z dx dz) by assumption.
    apply xcmp_le_trans.
  - intros x (Vx & dx & Ex & Nx). rewrite (cmp_exact_all x x dx dx) by assumption. right. now apply xcmp_refl.
Qed.

Lemma intlike_num_ok v : zkey v <> None -> num_ok v.
Proof.
  destruct v; cbn [zkey]; try congruence; intros _; (split; [exact I|]); eexists; (split; [reflexivity|discriminate]).
Qed.

Lemma digits_between m lo hi : 0 <= lo -> 0 <= hi -> 2 ^ lo <= Zpos m < 2 ^ hi ->
  lo < Zpos (digits2_pos m) <= hi.
Proof.
  intros Hl Hh [H1 H2]. pose proof (digits2_pos_bounds m) as [B1 B2].
  assert (L : 2 ^ lo < 2 ^ Zpos (digits2_pos m)) by lia.
  assert (U : 2 ^ (Zpos (digits2_pos m) - 1) < 2 ^ hi) by lia.
  apply Z.pow_lt_mono_r_iff in L, U; lia.
Qed.

(** Doubles enter the model over the wire as 64-bit patterns. *)
Theorem bits_valid b : fvalid (f64_of_bits b).
Proof.
  unfold fvalid, f64_of_bits.
  set (r := b mod 9223372036854775808). set (ex := r / 4503599627370496). set (mant := r mod 4503599627370496).
  assert (Hr : 0 <= r < 9223372036854775808) by (apply Z.mod_pos_bound; lia).
  assert (Hm : 0 <= mant < 4503599627370496) by (apply Z.mod_pos_bound; lia).
  assert (Hx : 0 <= ex < 2048).
  { split; [apply Z.div_pos; lia|]. apply Z.div_lt_upper_bound; lia. }
  destruct (ex =? 2047) eqn:E1; [destruct (mant =? 0); reflexivity|].
  destruct (ex =? 0) eqn:E0.
  - destruct mant as [|m|m] eqn:Em; try reflexivity. cbn [valid_binary].
    pose proof (digits_between m 0 52 ltac:(lia) ltac:(lia) ltac:(change (2 ^ 52) with 4503599627370496; lia)) as D.
    apply bounded_iff. lia.
  - destruct (mant + 4503599627370496) as [|m|m] eqn:Em; try reflexivity. cbn [valid_binary].
    pose proof (digits_between m 52 53 ltac:(lia) ltac:(lia)
                  ltac:(change (2 ^ 52) with 4503599627370496; change (2 ^ 53) with 9007199254740992; lia)) as D.
    apply Z.eqb_neq in E1, E0. apply bounded_iff. lia.
Qed.

