(** C12, the raw forms: a raw literal compiles to its body verbatim, a raw bytes literal to the
    UTF-8 encoding of its body. *)
From Coq Require Import String Lia.
From Cel.Model Require Import Surface.
From Cel.Proofs Require Import LiteralProofs LexerRoundtrip.

Lemma flat_map_uchar s : flat_map unit_bytes (map UChar s) = flat_map utf8_enc1 s.
Proof. induction s as [|c s IH]; [reflexivity|]. cbn [map flat_map unit_bytes]. now rewrite IH. Qed.

Lemma decode_bytes_raw b p tok s : (p = ch "r" \/ p = ch "R")%N -> strip_delims tok = Some s ->
  decode_bytes (b :: p :: tok) = Some (flat_map utf8_enc1 s).
Proof.
  intros Hp Hd. rewrite decode_bytes_units, (decode_units_raw p tok s Hp Hd). cbn [option_map]. now rewrite flat_map_uchar.
Qed.

(** Whatever the delimiters: a text the raw STRING rule takes whole, with [s] between its delimiters. *)
Theorem raw_compiles p t s : (p = ch "r" \/ p = ch "R")%N -> closes true t -> strip_delims t = Some s ->
  compile (text [TString (p :: t)]) = CExpr (ELit (VStr s)).
Proof.
  intros Hp Hc Hd. apply compile_str_token; [now apply decode_string_raw|now apply lexable_raw].
Qed.

Theorem raw_bytes_compiles b p t s : (b = ch "b" \/ b = ch "B")%N -> (p = ch "r" \/ p = ch "R")%N ->
  closes true t -> strip_delims t = Some s ->
  compile (text [TBytes (b :: p :: t)]) = CExpr (ELit (VBytes (flat_map utf8_enc1 s))).
Proof.
  intros Hb Hp Hc Hd. apply compile_bytes_token; [now apply decode_bytes_raw|now apply lexable_rawbytes].
Qed.

(** [free3]: raw triple-quoted bodies that may contain the quote character - anything in which no three
    consecutive quotes occur before the closing delimiter (in particular the body does not end
    with a quote), and without the two code points the runtime's wildcard refuses (K01). *)
Definition starts3 (q : N) (l : str) : bool :=
  match l with a :: b :: c :: _ => ((a =? q) && (b =? q) && (c =? q))%N | _ => false end.
Fixpoint free3 (q : N) (s : str) : bool :=
  match s with
  | [] => true
  | c :: r => negb (starts3 q (s ++ [q; q])) && negb ((c =? 0) || (c =? 1114111))%N && free3 q r
  end.

Lemma starts3_ext q c r rest : starts3 q ((c :: r) ++ q :: q :: q :: rest) = starts3 q ((c :: r) ++ [q; q]).
Proof. destruct r as [|b [|d t]]; reflexivity. Qed.

Lemma scan_long_free q body rest : forall n f, free3 q body = true -> length body <= f ->
  scan_long (S f) q true (body ++ q :: q :: q :: rest) n = Some (3 + (length body + n)).
Proof.
  induction body as [|c r IH]; intros n f Hb Hf; cbn [app length].
  - cbn [scan_long]. now rewrite !N.eqb_refl.
  - cbn [free3] in Hb. apply andb_prop in Hb as [Hb Hr]. apply andb_prop in Hb as [H3 Hc].
    apply Bool.negb_true_iff in H3, Hc. rewrite <- (starts3_ext q c r rest) in H3.
    destruct f as [|f]; [cbn [length] in Hf; lia|].
    rewrite scan_long_step; [|rewrite app_length; cbn [length]; lia|exact H3].
    cbn [negb andb]. rewrite Bool.andb_false_r, Hc.
    rewrite (IH (S n) f Hr ltac:(cbn [length] in Hf; lia)). f_equal. lia.
Qed.

Lemma closes_free3 q body : (q = 34 \/ q = 39)%N -> free3 q body = true ->
  closes true (q :: q :: q :: body ++ [q; q; q]).
Proof.
  intros Hq Hb. apply closes_long; [exact Hq|]. intros rest f n Hf.
  exact (scan_long_free q body rest n f Hb (Nat.lt_le_incl _ _ Hf)).
Qed.

Lemma raw_ok3_free q s : raw_ok3 q s = true -> free3 q s = true.
Proof.
  induction s as [|c r IH]; [reflexivity|]. intros H. cbn [raw_ok3 forallb] in H. apply andb_prop in H as [Hc Hr].
  apply Bool.negb_true_iff in Hc. apply Bool.orb_false_iff in Hc as [Hc Hmax]. apply Bool.orb_false_iff in Hc as [Hcq H0].
  cbn [free3]. rewrite (IH Hr), H0, Hmax.
  assert (starts3 q ((c :: r) ++ [q; q]) = false) as ->; [|reflexivity].
  destruct r as [|b [|d t]]; cbn [app starts3]; now rewrite Hcq.
Qed.

(** r'''it's "x" '' ok''' : quotes of both kinds, pairs of the delimiter's quote included *)
Example free3_ex : free3 39 $"it's ""x"" '' ok" = true /\ free3 39 $"ends with '" = false /\ free3 39 $"a'''b" = false.
Proof. repeat split. Qed.
