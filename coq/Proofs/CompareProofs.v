(** C09: coherence of equality and ordering. *)
From Cel.Model Require Import Compare.
From Cel.Proofs Require Import BaseFacts.
From Coq Require Import Lia QArith.
Open Scope Z_scope.

(** [str_cmp] is the lexicographic order on code points. *)
Inductive lex_lt : str -> str -> Prop :=
| lex_nil y b : lex_lt [] (y :: b)
| lex_head x y a b : (x < y)%N -> lex_lt (x :: a) (y :: b)
| lex_tail x a b : lex_lt a b -> lex_lt (x :: a) (x :: b).

Lemma str_cmp_lt a b : str_cmp a b = Lt <-> lex_lt a b.
Proof.
  revert b; induction a as [|x a IH]; intros [|y b]; cbn [str_cmp].
  - split; [discriminate|inversion 1].
  - split; [constructor|reflexivity].
  - split; [discriminate|inversion 1].
  - destruct (N.compare_spec x y) as [->|H|H].
    + rewrite IH. split; [apply lex_tail|]. inversion 1; subst; [lia|assumption].
    + split; [intros _; now apply lex_head|reflexivity].
    + split; [discriminate|]. inversion 1; subst; lia.
Qed.

Lemma list_eqb_eq {A} (eqA : A -> A -> bool) (H : forall x y, eqA x y = true <-> x = y) a b :
  list_eqb eqA a b = true <-> a = b.
Proof.
  revert b; induction a as [|x a IH]; intros [|y b]; cbn [list_eqb]; try (split; congruence).
  rewrite andb_true_iff, H, IH. split; [intros [-> ->]; reflexivity|intros [= -> ->]; auto].
Qed.

Lemma list_eqb_sym {A} (eqA : A -> A -> bool) (H : forall x y, eqA x y = eqA y x) a b :
  list_eqb eqA a b = list_eqb eqA b a.
Proof.
  revert b; induction a as [|x a IH]; intros [|y b]; cbn [list_eqb]; try reflexivity.
  now rewrite IH, H.
Qed.

Lemma str_eqb_cmp a b : str_eqb a b = match str_cmp a b with Eq => true | _ => false end.
Proof.
  revert b; induction a as [|x a IH]; intros [|y b]; cbn [str_eqb str_cmp]; try reflexivity.
  rewrite N.eqb_compare. destruct (x ?= y)%N; [apply IH|reflexivity..].
Qed.

Lemma str_cmp_eq a b : str_cmp a b = Eq <-> a = b.
Proof. rewrite <- str_eqb_eq, str_eqb_cmp. destruct (str_cmp a b); split; congruence. Qed.

Lemma str_cmp_antisym a b : str_cmp b a = CompOpp (str_cmp a b).
Proof.
  revert b; induction a as [|x a IH]; intros [|y b]; cbn [str_cmp]; try reflexivity.
  rewrite (N.compare_antisym x y). destruct (N.compare x y); cbn [CompOpp]; auto.
Qed.

Lemma str_cmp_trans a b c : str_cmp a b = Lt -> str_cmp b c = Lt -> str_cmp a c = Lt.
Proof.
  revert b c; induction a as [|x a IH]; intros [|y b] [|z c]; cbn [str_cmp]; try congruence.
  destruct (N.compare_spec x y) as [->|H|H]; try discriminate.
  - destruct (N.compare_spec y z) as [->|H2|H2]; try discriminate; [apply IH|reflexivity].
  - intros _. destruct (N.compare_spec y z) as [->|H2|H2]; try discriminate; intros _;
      destruct (N.compare_spec x z); try lia; reflexivity.
Qed.

Lemma fcmp_antisym x y : fcmp y x = option_map CompOpp (fcmp x y).
Proof.
  unfold fcmp, SFcompare.
  destruct x as [sx|sx| |sx mx ex], y as [sy|sy| |sy my ey]; cbn [option_map];
    try reflexivity; try (destruct sx, sy; reflexivity).
  destruct sx, sy; cbn [CompOpp]; try reflexivity;
    rewrite (Z.compare_antisym ex ey); destruct (ex ?= ey) eqn:E; cbn [CompOpp]; try reflexivity;
    change (Pcompare my mx Eq) with (Pos.compare my mx);
    change (Pcompare mx my Eq) with (Pos.compare mx my);
    rewrite (Pos.compare_antisym mx my); destruct (mx ?= my)%positive; reflexivity.
Qed.

Lemma feq_refl f : f <> S754_nan -> feq f f = true.
Proof.
  destruct f as [s|s| |s m e]; [reflexivity|now destruct s|congruence|]. intros _.
  unfold feq, fcmp. cbn [SFcompare]. rewrite Z.compare_refl, Pos.compare_cont_refl. now destruct s.
Qed.

Inductive vkind := KNum | KStrK | KBytesK | KBoolK | KNullK | KListK | KMapK | KFunK | KDurK | KTsK.
Definition kind_of (v : value) : vkind :=
  match v with
  | VInt _ | VUInt _ | VDbl _ => KNum
  | VStr _ => KStrK | VBytes _ => KBytesK | VBool _ => KBoolK | VNull => KNullK
  | VList _ => KListK | VMap _ => KMapK | VFun _ _ => KFunK | VDur _ => KDurK | VTs _ _ => KTsK
  end.

(** Only values of the same kind are comparable, or equal. *)
Lemma kind_cases a b : kind_of a = kind_of b \/ v_eq a b = false /\ v_cmp a b = None.
Proof. destruct a, b; (left; reflexivity) || (right; split; reflexivity). Qed.

Lemma cmp_kind a b c : v_cmp a b = Some c -> kind_of a = kind_of b.
Proof. destruct (kind_cases a b) as [K|[_ N]]; [trivial|congruence]. Qed.

Lemma eq_kind a b : v_eq a b = true -> kind_of a = kind_of b.
Proof. destruct (kind_cases a b) as [K|[N _]]; [trivial|congruence]. Qed.

Lemma unrelated a b : kind_of a <> kind_of b -> v_eq a b = false /\ v_cmp a b = None.
Proof. destruct (kind_cases a b) as [K|N]; [contradiction|trivial]. Qed.

Inductive xnum := XNaN | XInf (neg : bool) | XFin (q : Q).

Definition Qval (f : f64) : Q :=
  match f with
  | S754_finite s m e =>
      let v := if s then Zneg m else Zpos m in
      match e with
      | Z0 => inject_Z v
      | Zpos p => inject_Z (v * Z.pow_pos 2 p)
      | Zneg p => Qmake v (Pos.pow 2 p)
      end
  | _ => 0%Q
  end.

(** The number a double denotes. *)
Definition fden (f : f64) : xnum :=
  match f with
  | S754_nan => XNaN
  | S754_infinity s => XInf s
  | _ => XFin (Qval f)
  end.

Definition den (v : value) : option xnum :=
  match v with
  | VInt z | VUInt z => Some (XFin (inject_Z z))
  | VDbl f => Some match f with
                   | S754_nan => XNaN
                   | S754_infinity s => XInf s
                   | _ => XFin (Qval f)
                   end
  | _ => None
  end.

Lemma den_dbl f : den (VDbl f) = Some (fden f).
Proof. reflexivity. Qed.

Lemma den_kind a : kind_of a = KNum <-> exists d, den a = Some d.
Proof. destruct a; cbn [kind_of den]; split; try discriminate; eauto; intros [d [=]]. Qed.

Lemma same_kind_den a b da : kind_of a = kind_of b -> den a = Some da -> exists db, den b = Some db.
Proof. intros K Da. apply den_kind. rewrite <- K. apply den_kind. eauto. Qed.

(** Comparison of extended rationals: NaN unordered, infinities at the ends. *)
Definition xcmp (a b : xnum) : option comparison :=
  match a, b with
  | XNaN, _ | _, XNaN => None
  | XInf s1, XInf s2 => Some (match s1, s2 with
                              | true, false => Lt | false, true => Gt | _, _ => Eq end)
  | XInf s, XFin _ => Some (if s then Lt else Gt)
  | XFin _, XInf s => Some (if s then Gt else Lt)
  | XFin p, XFin q => Some (Qcompare p q)
  end.

Definition is_dbl (v : value) : bool := match v with VDbl _ => true | _ => false end.

Definition le_or_eq (c : option comparison) : Prop := c = Some Lt \/ c = Some Eq.

Lemma xcmp_antisym a b : xcmp b a = option_map CompOpp (xcmp a b).
Proof.
  destruct a as [|s|p], b as [|t|q]; cbn; try reflexivity;
    try (destruct s; reflexivity); try (destruct t; reflexivity);
    try (destruct s, t; reflexivity).
  now rewrite <- Qcompare_antisym.
Qed.

Lemma xcmp_refl a : a <> XNaN -> xcmp a a = Some Eq.
Proof.
  destruct a as [|s|q]; [congruence| |]; intros _; cbn [xcmp].
  - now destruct s.
  - f_equal. apply Qeq_alt. reflexivity.
Qed.

(** Transitivity in one statement: two steps neither of which goes down compose, to [Eq]
    only if both are [Eq]. *)
Lemma Qcompare_trans p q r c1 c2 : (p ?= q)%Q = c1 -> (q ?= r)%Q = c2 -> c1 <> Gt -> c2 <> Gt ->
  (p ?= r)%Q = match c1 with Eq => c2 | _ => Lt end.
Proof.
  intros H1 H2 N1 N2. destruct c1; [|clear N1|congruence].
  - apply Qeq_alt in H1. now rewrite H1.
  - apply Qlt_alt in H1. apply Qlt_alt. destruct c2; [|apply Qlt_alt in H2|congruence].
    + apply Qeq_alt in H2. now rewrite <- H2.
    + eapply Qlt_trans; eassumption.
Qed.

Lemma xcmp_trans a b c c1 c2 : xcmp a b = Some c1 -> xcmp b c = Some c2 -> c1 <> Gt -> c2 <> Gt ->
  xcmp a c = Some (match c1 with Eq => c2 | _ => Lt end).
Proof.
  destruct a as [|sa|p], b as [|sb|q], c as [|sc|r]; cbn [xcmp]; try discriminate.
  (* three rationals: [Qcompare_trans]; with an infinity among them both sides compute *)
  all: try destruct sa; try destruct sb; try destruct sc; intros [= <-] [= <-] N1 N2;
    (reflexivity || congruence || (f_equal; exact (Qcompare_trans p q r _ _ eq_refl eq_refl N1 N2)) || (destruct (_ ?= _)%Q; reflexivity)).
Qed.

Lemma xcmp_lt_trans a b c : xcmp a b = Some Lt -> xcmp b c = Some Lt -> xcmp a c = Some Lt.
Proof. intros H1 H2. now apply (xcmp_trans a b c Lt Lt). Qed.

Lemma xcmp_eq_trans a b c : xcmp a b = Some Eq -> xcmp b c = Some Eq -> xcmp a c = Some Eq.
Proof. intros H1 H2. now apply (xcmp_trans a b c Eq Eq). Qed.

Lemma xcmp_le_trans a b c : le_or_eq (xcmp a b) -> le_or_eq (xcmp b c) -> le_or_eq (xcmp a c).
Proof.
  unfold le_or_eq. intros [H1|H1] [H2|H2]; rewrite (xcmp_trans a b c _ _ H1 H2) by discriminate; auto.
Qed.

Lemma Qcompare_inject x y : Qcompare (inject_Z x) (inject_Z y) = Z.compare x y.
Proof. unfold Qcompare, inject_Z. now rewrite !Z.mul_1_r. Qed.

Lemma cmp_Z_f64_den z f : cmp_Z_f64 z f = xcmp (XFin (inject_Z z)) (fden f).
Proof.
  destruct f as [s|s| |s m e]; cbn [cmp_Z_f64 fden xcmp Qval]; try reflexivity.
  - now rewrite <- Qcompare_inject.
  - destruct e as [|p|p]; unfold Qcompare, inject_Z; cbn [Qnum Qden]; rewrite ?Z.mul_1_r; try reflexivity.
    now rewrite Pos2Z.inj_pow_pos.
Qed.

Lemma cmp_Z_f64_inf z s : cmp_Z_f64 z (S754_infinity s) = Some (if s then Gt else Lt).
Proof. exact (cmp_Z_f64_den z (S754_infinity s)). Qed.
Lemma cmp_Z_f64_nan z : cmp_Z_f64 z S754_nan = None.
Proof. exact (cmp_Z_f64_den z S754_nan). Qed.

(** Comparisons in which at most one operand is a double compare the numbers denoted. *)
Lemma cmp_exact a b da db :
  den a = Some da -> den b = Some db -> is_dbl a && is_dbl b = false ->
  v_cmp a b = xcmp da db.
Proof.
  destruct a; try discriminate; destruct b; try discriminate; rewrite ?den_dbl; intros [= <-] [= <-] _;
    (* the third hypothesis has done its work: [discriminate] refuted the case of two doubles with it *)
    cbn [v_cmp]; rewrite ?cmp_Z_f64_den, <- ?xcmp_antisym; try reflexivity;
    cbn [xcmp]; now rewrite Qcompare_inject.
Qed.

Lemma cmp_is_eq_opp c : cmp_is_eq (option_map CompOpp c) = cmp_is_eq c.
Proof. now destruct c as [[]|]. Qed.

(** On numbers [==] is [v_cmp] giving [Eq], NaN included. *)
Lemma num_eq_cmp a b : kind_of a = KNum -> kind_of b = KNum -> v_eq a b = cmp_is_eq (v_cmp a b).
Proof.
  destruct a; try discriminate; destruct b; try discriminate; intros _ _; cbn [v_eq v_cmp cmp_is_eq];
    try apply Z.eqb_compare; try reflexivity; now rewrite cmp_is_eq_opp.
Qed.

Lemma cmp_eq_coherent a b c : v_cmp a b = Some c -> v_eq a b = match c with Eq => true | _ => false end.
Proof.
  intros H. pose proof (cmp_kind _ _ _ H) as K. destruct (kind_of a) eqn:Ka.
  { now rewrite (num_eq_cmp a b Ka (eq_sym K)), H. }
  all: destruct a; try discriminate Ka; destruct b; try discriminate K; try discriminate H;
    injection H as <-; cbn [v_eq].
  - apply str_eqb_cmp.
  - now destruct b0, b.
  - reflexivity.
  - apply Z.eqb_compare.
  - apply Z.eqb_compare.
Qed.

Lemma eq_of_cmp a b da db : den a = Some da -> den b = Some db -> v_cmp a b = xcmp da db ->
  v_eq a b = match xcmp da db with Some Eq => true | _ => false end.
Proof. intros Ha Hb H. rewrite num_eq_cmp, H; [reflexivity|apply den_kind; eauto..]. Qed.

Lemma eq_exact a b da db :
  den a = Some da -> den b = Some db -> is_dbl a && is_dbl b = false ->
  v_eq a b = match xcmp da db with Some Eq => true | _ => false end.
Proof. intros Ha Hb Hd. exact (eq_of_cmp a b da db Ha Hb (cmp_exact a b da db Ha Hb Hd)). Qed.

Lemma cmp_antisym a b : v_cmp b a = option_map CompOpp (v_cmp a b).
Proof.
  destruct a, b; cbn [v_cmp option_map]; try reflexivity;
    try (now rewrite Z.compare_antisym);
    try (match goal with
         | |- context [cmp_Z_f64 ?z ?f] => destruct (cmp_Z_f64 z f) as [[]|]; reflexivity
         end).
  - apply fcmp_antisym.
  - now rewrite str_cmp_antisym.
  - destruct b0, b; reflexivity.
Qed.

Lemma num_eq_sym a b : kind_of a = KNum -> kind_of b = KNum -> v_eq a b = v_eq b a.
Proof. intros Ka Kb. now rewrite !num_eq_cmp, (cmp_antisym a b), cmp_is_eq_opp. Qed.

Definition is_true (o : outcome value) : bool :=
  match o with Ok (VBool true) => true | _ => false end.

Lemma trichotomy a b c : v_cmp a b = Some c ->
  match c with
  | Lt => is_true (v_lt a b) = true /\ v_eq a b = false /\ is_true (v_gt a b) = false
  | Eq => is_true (v_lt a b) = false /\ v_eq a b = true /\ is_true (v_gt a b) = false
  | Gt => is_true (v_lt a b) = false /\ v_eq a b = false /\ is_true (v_gt a b) = true
  end.
Proof. intros H. unfold v_lt, v_gt. rewrite H, (cmp_eq_coherent a b c H). now destruct c. Qed.

Lemma v_eq_list a b :
  v_eq (VList a) (VList b) = true <-> Forall2 (fun x y => v_eq x y = true) a b.
Proof.
  cbn [v_eq]. revert b; induction a as [|x a IH]; intros [|y b].
  - split; [constructor|reflexivity].
  - split; [discriminate|inversion 1].
  - split; [discriminate|inversion 1].
  - rewrite andb_true_iff, IH. split.
    + intros [H1 H2]; constructor; assumption.
    + inversion 1; subst; split; assumption.
Qed.

Lemma v_eq_map a b :
  v_eq (VMap a) (VMap b) = true <->
  length a = length b /\
  Forall (fun kv => exists v', assoc_get (fst kv) b = Some v' /\ v_eq (snd kv) v' = true) a.
Proof.
  cbn [v_eq]. rewrite andb_true_iff, Nat.eqb_eq. apply and_iff_compat_l.
  induction a as [|[k v] m IH]; [split; [constructor|reflexivity]|].
  destruct (assoc_get k b) as [v'|] eqn:E.
  - rewrite andb_true_iff, IH. split.
    + intros [H1 H2]. constructor; [exists v'; cbn; auto|assumption].
    + inversion 1 as [|? ? [v'' [H1 H2]] H3]; subst. cbn in H1. rewrite E in H1.
      injection H1 as <-. auto.
  - split; [discriminate|]. inversion 1 as [|? ? [v'' [H1 H2]] H3]; subst.
    cbn in H1. congruence.
Qed.

Definition zkey (v : value) : option Z :=
  match v with
  | VInt z | VUInt z => Some z
  | _ => None
  end.

Lemma zkey_den a x : zkey a = Some x -> den a = Some (XFin (inject_Z x)) /\ is_dbl a = false.
Proof. destruct a; try discriminate; intros [= <-]; split; reflexivity. Qed.

Lemma num_lt_trans a b c da db dc : den a = Some da -> den b = Some db -> den c = Some dc ->
  is_dbl a && is_dbl b = false -> is_dbl b && is_dbl c = false -> is_dbl a && is_dbl c = false ->
  v_cmp a b = Some Lt -> v_cmp b c = Some Lt -> v_cmp a c = Some Lt.
Proof.
  intros Ha Hb Hc Dab Dbc Dac.
  rewrite (cmp_exact a b da db), (cmp_exact b c db dc), (cmp_exact a c da dc) by assumption.
  apply xcmp_lt_trans.
Qed.

Lemma trans_intlike a b c x y z :
  zkey a = Some x -> zkey b = Some y -> zkey c = Some z ->
  v_cmp a b = Some Lt -> v_cmp b c = Some Lt -> v_cmp a c = Some Lt.
Proof.
  intros Ha Hb Hc. apply zkey_den in Ha as [Da Ia], Hb as [Db Ib], Hc as [Dc Ic].
  apply (num_lt_trans a b c _ _ _ Da Db Dc); rewrite ?Ia, ?Ib; reflexivity.
Qed.

Lemma trans_str a b c :
  v_cmp (VStr a) (VStr b) = Some Lt -> v_cmp (VStr b) (VStr c) = Some Lt ->
  v_cmp (VStr a) (VStr c) = Some Lt.
Proof. cbn. intros [= H1] [= H2]. f_equal. eapply str_cmp_trans; eassumption. Qed.

Lemma trans_zdz a b c x z f :
  zkey a = Some x -> b = VDbl f -> zkey c = Some z ->
  v_cmp a b = Some Lt -> v_cmp b c = Some Lt -> v_cmp a c = Some Lt.
Proof.
  intros Ha -> Hc. apply zkey_den in Ha as [Da Ia], Hc as [Dc Ic].
  apply (num_lt_trans a (VDbl f) c _ _ _ Da eq_refl Dc); rewrite ?Ia, ?Ic; reflexivity.
Qed.

Lemma fold_pick_step acc y l :
  fold_pick Gt acc (y :: l) =
  match v_cmp acc y with
  | Some c => fold_pick Gt (match c with Gt => acc | _ => y end) l
  | None => Err EInvalid
  end.
Proof. cbn [fold_pick]. now destruct (v_cmp acc y) as [[]|]. Qed.

(** max: among values on which <= is reflexive and transitive, [fold_pick Gt], when it returns a
    value, returns an element that bounds all the others. *)
Lemma fold_pick_max_spec (P : value -> Prop) :
  (forall x y z, P x -> P y -> P z -> le_or_eq (v_cmp x y) -> le_or_eq (v_cmp y z) -> le_or_eq (v_cmp x z)) ->
  (forall x, P x -> le_or_eq (v_cmp x x)) ->
  forall l acc m, Forall P (acc :: l) -> fold_pick Gt acc l = Ok m ->
  In m (acc :: l) /\ forall x, In x (acc :: l) -> le_or_eq (v_cmp x m).
Proof.
  intros Htr Hrefl. induction l as [|y l IH]; intros acc m Hall.
  - intros [= <-]. split; [now left|]. intros x [<-|[]]. apply Hrefl. now inversion Hall.
  - rewrite fold_pick_step. destruct (v_cmp acc y) as [c|] eqn:E; [|discriminate].
    inversion Hall as [|? ? Pacc Hall']; subst. inversion Hall' as [|? ? Py Pl]; subst.
    set (acc' := match c with Gt => acc | _ => y end).
    assert (Pacc' : P acc') by (subst acc'; now destruct c).
    intros H. destruct (IH acc' m (Forall_cons _ Pacc' Pl) H) as [Hm Hb].
    assert (Pm : P m) by (destruct Hm as [<-|Hm]; [exact Pacc'|now apply (proj1 (Forall_forall P l) Pl)]).
    assert (Hacc' : le_or_eq (v_cmp acc' m)) by (apply Hb; now left).
    (* the new accumulator bounds both the old one and [y] *)
    assert (Ha : le_or_eq (v_cmp acc acc') /\ le_or_eq (v_cmp y acc')).
    { subst acc'. destruct c.
      - split; [right; exact E|now apply Hrefl].
      - split; [left; exact E|now apply Hrefl].
      - split; [now apply Hrefl|]. rewrite (cmp_antisym acc y), E. now left. }
    split.
    + destruct Hm as [<-|Hm]; [subst acc'; destruct c; cbn; auto|cbn; auto].
    + intros x [<-|[<-|Hx]].
      * apply (Htr acc acc' m); tauto.
      * apply (Htr y acc' m); tauto.
      * apply Hb. now right.
Qed.
