(** Digit strings: [dec_num], [nat_digits], [pad_digits], [strip_trailing]. *)
From Cel.Model Require Import Duration.
From Cel.Proofs Require Import BaseFacts.
From Coq Require Import Lia ZifyBool.
Open Scope Z_scope.




Lemma dec_num_app l1 l2 a : dec_num (l1 ++ l2) a = dec_num l2 (dec_num l1 a).
Proof. revert a; induction l1 as [|c l IH]; intros a; cbn [app dec_num]; [reflexivity|apply IH]. Qed.

Lemma dec_num_zeros j : forall a, dec_num (repeat 48%N j) a = a * 10 ^ Z.of_nat j.
Proof.
  induction j as [|j IH]; intros a; cbn [repeat dec_num].
  - lia.
  - rewrite IH, Nat2Z.inj_succ, Z.pow_succ_r by lia. lia.
Qed.

(** [nat_digits]: the fuel is enough, so the digits obey the usual two equations *)
Lemma digits_fuel_indep n : 1 <= n -> forall f g acc, n < 10 ^ Z.of_nat f -> n < 10 ^ Z.of_nat g ->
  digits_fuel f n acc = digits_fuel g n [] ++ acc.
Proof.
  intros H1. assert (H0 : 0 <= n) by lia. revert H1. pattern n. apply Zlt_0_ind; [clear|exact H0].
  intros n IH _ Hn [|f] [|g] acc Hf Hg; try (change (10 ^ Z.of_nat 0) with 1 in *; lia).
  rewrite !Nat2Z.inj_succ, !Z.pow_succ_r in * by lia.
  cbn [digits_fuel]. destruct (Z.ltb_spec n 10); [reflexivity|].
  assert (Hq : 1 <= n / 10 < n) by (Z.div_mod_to_equations; lia).
  rewrite (IH (n / 10) ltac:(lia) ltac:(lia) f g) by (Z.div_mod_to_equations; lia).
  rewrite (IH (n / 10) ltac:(lia) ltac:(lia) g g [_]) by (Z.div_mod_to_equations; lia).
  now rewrite <- app_assoc.
Qed.

Lemma lt_pow10_log2 n : 0 <= n -> n < 10 ^ Z.of_nat (S (Z.to_nat (Z.log2 n))).
Proof.
  intros Hn. pose proof (Z.log2_nonneg n). rewrite Nat2Z.inj_succ, Z2Nat.id by assumption.
  destruct (Z.eq_dec n 0) as [->|]; [reflexivity|].
  apply Z.lt_le_trans with (2 ^ Z.succ (Z.log2 n)); [apply Z.log2_spec; lia|apply Z.pow_le_mono_l; lia].
Qed.

Lemma nat_digits_small n : n < 10 -> nat_digits n = [Z.to_N (48 + n)].
Proof. intros H. unfold nat_digits. cbn [digits_fuel]. destruct (Z.ltb_spec n 10); [reflexivity|lia]. Qed.

Lemma nat_digits_step n : 10 <= n -> nat_digits n = nat_digits (n / 10) ++ [Z.to_N (48 + n mod 10)].
Proof.
  intros H. pose proof (lt_pow10_log2 n ltac:(lia)) as B. rewrite Nat2Z.inj_succ, Z.pow_succ_r in B by lia.
  unfold nat_digits at 1. cbn [digits_fuel]. destruct (Z.ltb_spec n 10); [lia|].
  apply (digits_fuel_indep (n / 10) ltac:(Z.div_mod_to_equations; lia) _ (S (Z.to_nat (Z.log2 (n / 10))))).
  - Z.div_mod_to_equations; lia.
  - apply lt_pow10_log2. Z.div_mod_to_equations; lia.
Qed.

Lemma nat_digits_spec n : 0 <= n ->
  dec_num (nat_digits n) 0 = n /\ forallb is_digit (nat_digits n) = true /\
  forall k, n < 10 ^ Z.of_nat (S k) -> (1 <= length (nat_digits n) <= S k)%nat.
Proof.
  intros H0. pattern n. apply Zlt_0_ind; [clear|exact H0]. intros n IH Hn. destruct (Z_lt_le_dec n 10) as [H|H].
  - rewrite (nat_digits_small n H). cbn [dec_num forallb length]. rewrite Z2N.id by lia.
    unfold is_digit. repeat split; lia.
  - assert (Hq : 0 <= n / 10 < n) by (Z.div_mod_to_equations; lia).
    rewrite (nat_digits_step n H). destruct (IH (n / 10) Hq) as (V & A & L).
    rewrite dec_num_app, forallb_app, app_length, V, A. cbn [dec_num forallb length].
    rewrite Z2N.id by (Z.div_mod_to_equations; lia). unfold is_digit.
    repeat split; try (Z.div_mod_to_equations; lia).
    destruct k as [|k]; [change (10 ^ Z.of_nat 1) with 10 in *; lia|].
    rewrite (Nat2Z.inj_succ (S k)), Z.pow_succ_r in * by lia.
    specialize (L k ltac:(Z.div_mod_to_equations; lia)). lia.
Qed.

Lemma nat_digits_head n : 0 <= n -> exists c r, nat_digits n = c :: r /\ is_digit c = true.
Proof.
  intros H. destruct (nat_digits_spec n H) as (_ & A & L). specialize (L (Z.to_nat n)).
  destruct (nat_digits n) as [|c r].
  - exfalso. cbn [length] in L. pose proof (Z.pow_gt_lin_r 10 (Z.of_nat (S (Z.to_nat n)))). lia.
  - exists c, r. cbn [forallb] in A. now apply andb_prop in A as [A _].
Qed.

Lemma nat_digits_nonempty n : 0 <= n -> nat_digits n <> [].
Proof. intros H. destruct (nat_digits_head n H) as (c & r & -> & _). discriminate. Qed.

Lemma pad_digits_all w v : 0 <= v -> forallb is_digit (pad_digits w v) = true.
Proof.
  intros H. unfold pad_digits. rewrite forallb_app, forallb_repeat by reflexivity. apply (nat_digits_spec v H).
Qed.

Lemma pad_digits_val w v : 0 <= v -> dec_num (pad_digits w v) 0 = v.
Proof.
  intros H. unfold pad_digits. rewrite dec_num_app, dec_num_zeros, Z.mul_0_l. apply (nat_digits_spec v H).
Qed.

Lemma pad_digits_len w v : (1 <= w)%nat -> 0 <= v < 10 ^ Z.of_nat w -> length (pad_digits w v) = w.
Proof.
  intros Hw Hv. destruct w as [|k]; [lia|]. destruct (nat_digits_spec v ltac:(lia)) as (_ & _ & L).
  specialize (L k ltac:(lia)). unfold pad_digits. rewrite app_length, repeat_length. lia.
Qed.

Lemma strip_spec l : exists j, l = strip_trailing l ++ repeat 48%N j.
Proof.
  induction l as [|c l [j IH]]; cbn [strip_trailing]; [exists 0%nat; reflexivity|].
  destruct (strip_trailing l) as [|x r] eqn:E.
  - destruct (c =? 48)%N eqn:Ec.
    + apply N.eqb_eq in Ec. subst c. exists (S j). now rewrite IH.
    + exists j. now rewrite IH.
  - exists j. now rewrite IH at 1.
Qed.
