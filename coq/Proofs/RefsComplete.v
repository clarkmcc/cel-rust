(** C19: an "undeclared reference" failure names a free identifier the context does not define
    or a called function it does not have; the macro expansions are closed. *)
From Cel.Model Require Import Eval Refs Macros.
From Cel.Proofs Require Import BaseFacts EvalBase ContextProofs NoCrash RefsProofs.

Definition vdef (c : ctx) (x : str) : Prop := exists v, lookup c x = Ok v.

Lemma in_rm x y l : In x (rm y l) <-> In x l /\ str_eqb x y = false.
Proof. unfold rm. rewrite filter_In, Bool.negb_true_iff. tauto. Qed.

Lemma vdef_define c x v y : vdef c y -> vdef (define c x v) y.
Proof. intros [w H]. unfold vdef. rewrite lookup_define. destruct (str_eqb y x); eauto. Qed.
Lemma vdef_define_same c x v : vdef (define c x v) x.
Proof. exists v. apply lookup_define_same. Qed.
Lemma vdef_push c y : vdef c y -> vdef (push c) y.
Proof. intros [w H]. exists w. now rewrite lookup_push. Qed.

Lemma vdef_rm c x v l : (forall y, In y (rm x l) -> vdef c y) -> forall y, In y l -> vdef (define c x v) y.
Proof.
  intros H y Hy. destruct (str_eqb y x) eqn:E.
  - apply str_eqb_eq in E. subst. apply vdef_define_same.
  - apply vdef_define. apply H. apply in_rm. auto.
Qed.

(** [missing c vs fs x]: if [x] is "undeclared reference" to [n], then [n] is one of the
    identifiers [vs] and undefined in [c], or one of the function names [fs] and not in [c]. *)
Definition missing (c : ctx) (vs fs : list str) (x : errclass) : Prop :=
  forall n, x = EUndeclared n -> (In n vs /\ ~ vdef c n) \/ (In n fs /\ get_function c n = None).
Definition exact_refs (c : ctx) (vs fs : list str) (r : result) : Prop :=
  good (missing c vs fs) (fun _ => True) (fst r).

Lemma missing_ordinary c vs fs x : ordinary x -> missing c vs fs x.
Proof. destruct x; try contradiction; intros _ n; discriminate. Qed.

Lemma exact_refs_incl c vs fs vs' fs' r : incl vs vs' -> incl fs fs' ->
  exact_refs c vs fs r -> exact_refs c vs' fs' r.
Proof.
  intros Hv Hf. apply good_weaken; [|auto]. intros x Hx n Hn.
  destruct (Hx n Hn) as [[H1 H2]|[H1 H2]]; [left|right]; auto.
Qed.

(** [binds c a c']: [c'] has the functions of [c] and defines [a] and whatever [c] defines. *)
Definition binds (c : ctx) (a : str) (c' : ctx) : Prop :=
  funs c' = funs c /\ vdef c' a /\ forall x, vdef c x -> vdef c' x.

Lemma binds_define c c' a v : funs c' = funs c -> (forall x, vdef c x -> vdef c' x) -> binds c a (define c' a v).
Proof. intros Hf Hv. repeat split; [exact Hf|apply vdef_define_same|]. intros x Hx. now apply vdef_define, Hv. Qed.

(** Back from such a [c'] to [c]: [a] is not missing. *)
Lemma exact_refs_bound c c' a vs fs r : binds c a c' -> exact_refs c' vs fs r -> exact_refs c (rm a vs) fs r.
Proof.
  intros (If & Ia & Iv). apply good_weaken; [|auto]. intros x Hx n Hn.
  destruct (Hx n Hn) as [[H1 H2]|[H1 H2]]; [left|right; unfold get_function in *; now rewrite <- If].
  split; [|intros H; exact (H2 (Iv n H))]. apply in_rm. split; [exact H1|].
  destruct (str_eqb n a) eqn:E; [|reflexivity]. apply str_eqb_eq in E. now subst.
Qed.

(** What holds of a subexpression [a] holds with the lists of any expression that contains it. *)
Lemma refs_sub a vs fs : (forall c, exact_refs c (fv a) (ref_funs a) (eval c a)) ->
  incl (fv a) vs -> incl (ref_funs a) fs -> forall c, exact_refs c vs fs (eval c a).
Proof. intros IH Hv Hf c. exact (exact_refs_incl c _ _ vs fs _ Hv Hf (IH c)). Qed.

Theorem refs_exact e : forall c, exact_refs c (fv e) (ref_funs e) (eval c e).
Proof.
  induction e using expr_ind'; intros c; unfold exact_refs.
  - exact I.
  - exact I.
  - rewrite eval_ident. cbn [fst]. unfold lookup. destruct (lookup_scopes x (scopes c)) eqn:E; [exact I|].
    intros n [= <-]. left. split; [now left|]. intros [v Hv]. unfold lookup in Hv. now rewrite E in Hv.
  - rewrite eval_call. apply (call_dispatch_good _ (fun _ => True)); [apply missing_ordinary|now right| | |].
    + intros Hf n [= <-]. right. split; [now left|exact Hf].
    + destruct target as [t|]; [|exact I].
      apply (refs_sub t _ _ (H t eq_refl)); intros x Hx; cbn [fv ref_funs In]; rewrite in_app_iff; auto.
    + apply Forall_map, Forall_forall. intros a Ha. rewrite Forall_forall in H0.
      apply (refs_sub a _ _ (H0 a Ha)); intros x Hx; cbn [fv ref_funs In]; rewrite in_app_iff, in_go; eauto 6.
  - rewrite eval_select. apply rbind_good; [exact (IHe c)|].
    intros v. destruct t; [exact I|]. apply (tame_good _ _ (missing_ordinary _ _ _)), member_tame.
  - rewrite eval_list. apply list_go_good, Forall_forall. intros a Ha. rewrite Forall_forall in H.
    apply (refs_sub a _ _ (H a Ha)); intros x Hx; cbn [fv ref_funs]; rewrite in_go; eauto.
  - rewrite eval_map. apply map_go_good; [intros n; discriminate|].
    apply Forall_forall. intros kv Hkv. rewrite Forall_forall in H. destruct (H kv Hkv) as [Hk Hv].
    split; [apply (refs_sub _ _ _ Hk)|apply (refs_sub _ _ _ Hv)]; intros x Hx; cbn [fv ref_funs]; rewrite in_go2; eauto.
  - intros n; discriminate.
  - rewrite eval_comp. cbn [fv ref_funs].
    apply rbind_good; [apply (refs_sub e2 _ _ IHe2); auto 7 with datatypes|]. intros vi.
    apply rbind_good; [apply (refs_sub e1 _ _ IHe1); auto 7 with datatypes|]. intros vr.
    destruct (range_items vr) as [items|]; [|intros n; discriminate].
    apply (comp_loop_good _ _ (binds c av)).
    + intros c' B. apply (exact_refs_incl c (rm av (fv e3)) (ref_funs e3)); auto 7 with datatypes.
      exact (exact_refs_bound c c' av _ _ _ B (IHe3 c')).
    + intros c' it B. apply (exact_refs_incl c (rm av (rm iv (fv e4))) (ref_funs e4)); auto 7 with datatypes.
      * intros x Hx. rewrite !in_app_iff, !in_rm in *. tauto.
      * apply (exact_refs_bound c c' av _ _ _ B), (exact_refs_bound c' (define c' iv it) iv), IHe4.
        now apply binds_define.
    + intros c' B. apply (exact_refs_incl c (rm av (fv e5)) (ref_funs e5)); auto 7 with datatypes.
      exact (exact_refs_bound c c' av _ _ _ B (IHe5 c')).
    + intros c' it va (Hf & _ & Hv). apply binds_define; [exact Hf|]. intros x Hx. now apply vdef_define, Hv.
    + apply binds_define; [reflexivity|apply vdef_push].
Qed.

Lemma plain_id x : plain x -> plain x.
Proof. auto. Qed.

Corollary undeclared_is_missing e c n : fst (eval c e) = Err (EUndeclared n) ->
  (In n (fv e) /\ ~ vdef c n) \/ (In n (ref_funs e) /\ get_function c n = None).
Proof. intros H. pose proof (refs_exact e c) as R. unfold exact_refs in R. rewrite H in R. exact (R n eq_refl). Qed.

(** Every free identifier that is not macro-internal is reported. *)
Lemma fv_reported e : forall x, In x (fv e) -> starts_at x = false -> In x (ref_vars e).
Proof.
  induction e using expr_ind'; intros y Hy Hs; cbn [fv] in Hy; cbn [ref_vars]; try (destruct Hy; fail).
  - destruct Hy as [<-|[]]. rewrite Hs. now left.
  - rewrite in_app_iff, in_go in *. destruct Hy as [Hy|(a & Ha & Hy)].
    + left. destruct target as [t|]; [now apply (H t eq_refl)|destruct Hy].
    + right. exists a. rewrite Forall_forall in H0. auto.
  - now apply IHe.
  - rewrite in_go in *. destruct Hy as (a & Ha & Hy). exists a. rewrite Forall_forall in H. auto.
  - rewrite in_go2 in *. destruct Hy as (kv & Hkv & Hy). exists kv. rewrite Forall_forall in H.
    destruct (H kv Hkv), Hy; auto.
  - rewrite !in_app_iff in *. rewrite !in_rm in Hy.
    destruct Hy as [Hy|[Hy|[[Hy _]|[[[Hy _] _]|[Hy _]]]]]; auto 10.
Qed.

Lemma no_free_at_iff e : no_free_at e = true <-> forall y, In y (fv e) -> starts_at y = false.
Proof.
  unfold no_free_at. rewrite forallb_forall.
  split; intros H y Hy; specialize (H y Hy); now apply Bool.negb_true_iff.
Qed.

(** A comprehension binds its accumulator [a] in condition, step and result, and its
    iteration variable [x] in the step. *)
Lemma no_free_at_comp r x a i c s res : no_free_at r = true -> no_free_at i = true ->
  (forall y, In y (fv c ++ fv res) -> starts_at y = false \/ y = a) ->
  (forall y, In y (fv s) -> starts_at y = false \/ y = a \/ y = x) ->
  no_free_at (EComp r x a i c s res) = true.
Proof.
  rewrite !no_free_at_iff. intros Hr Hi H H' y. cbn [fv]. rewrite !in_app_iff, !in_rm.
  intros [Hy|[Hy|[[Hy E]|[[[Hy E] E']|[Hy E]]]]]; [now apply Hr|now apply Hi|..].
  - destruct (H y) as [Hc| ->]; [rewrite in_app_iff; auto|exact Hc|now rewrite str_eqb_refl in E].
  - destruct (H' y Hy) as [Hc|[->| ->]];
      [exact Hc|now rewrite str_eqb_refl in E|now rewrite str_eqb_refl in E'].
  - destruct (H y) as [Hc| ->]; [rewrite in_app_iff; auto|exact Hc|now rewrite str_eqb_refl in E].
Qed.

(** The macro expansions are closed when range and bodies are: the free names of their
    condition, step and result are the accumulator, the iteration variable and names of the
    bodies. *)
Theorem expansions_closed r x p q : no_free_at r = true -> no_free_at p = true -> no_free_at q = true ->
  no_free_at (expand_all r x p) = true /\ no_free_at (expand_exists r x p) = true /\
  no_free_at (expand_exists_one r x p) = true /\ no_free_at (expand_map r x None p) = true /\
  no_free_at (expand_map r x (Some q) p) = true /\ no_free_at (expand_filter r x p) = true.
Proof.
  intros Hr Hp Hq. rewrite no_free_at_iff in Hp, Hq.
  repeat split; (apply no_free_at_comp; [exact Hr|reflexivity| |]); intros y;
    cbn [fv call e_accu app In]; repeat (rewrite in_app_iff; cbn [In]); intros H;
    repeat (destruct H as [H|H]); subst; auto; contradiction.
Qed.
