(** Lemmas behind C08: the integer arms of the arithmetic operators are exact or report
    overflow / division by zero. *)
From Cel.Model Require Import Arith.
From Cel.Proofs Require Import BaseFacts.
From Coq Require Import Lia.
Open Scope Z_scope.

Inductive aop := OAdd | OSub | OMul | ODiv | ORem.

Definition apply_op (o : aop) : value -> value -> outcome value :=
  match o with
  | OAdd => v_add | OSub => v_sub | OMul => v_mul | ODiv => v_div | ORem => v_rem
  end.

(** The mathematically exact result over the integers ([None]: undefined, divisor 0).
    Division truncates toward zero ([Z.quot]); the remainder takes the sign of the dividend
    ([Z.rem]). *)
Definition exact (o : aop) (a b : Z) : option Z :=
  match o with
  | OAdd => Some (a + b)
  | OSub => Some (a - b)
  | OMul => Some (a * b)
  | ODiv => if b =? 0 then None else Some (Z.quot a b)
  | ORem => if b =? 0 then None else Some (Z.rem a b)
  end.

(** What the property prescribes for int operands.  The remainder overflows exactly when
    the quotient does (MIN % -1), as in cel-go. *)
Definition int_spec (o : aop) (a b : Z) : outcome value :=
  match exact o a b with
  | None => Err EDivZero
  | Some r =>
      match o with
      | ORem => if in_i64 (Z.quot a b) then Ok (VInt r) else Err EOverflow
      | _ => if in_i64 r then Ok (VInt r) else Err EOverflow
      end
  end.


Lemma int_op_exact o a b : apply_op o (VInt a) (VInt b) = int_spec o a b.
Proof.
  destruct o; unfold int_spec, exact; cbn [apply_op v_add v_sub v_mul v_div v_rem chk_i64];
    try reflexivity; destruct (b =? 0); reflexivity.
Qed.

Lemma int_spec_shape o a b :
  match int_spec o a b with
  | Ok (VInt r) => in_i64 r = true \/ o = ORem
  | Err EOverflow | Err EDivZero => True
  | _ => False
  end.
Proof.
  unfold int_spec. destruct (exact o a b) as [r|]; [|exact I].
  destruct o; try (destruct (in_i64 r) eqn:E; [now left|exact I]).
  destruct (in_i64 (Z.quot a b)); [now right|exact I].
Qed.

(** Division truncates toward zero: [k] times the quotient is no larger than the dividend, for
    every [k] up to the size of the divisor. *)
Lemma quot_abs_le a b k : b <> 0 -> 0 <= k <= Z.abs b -> k * Z.abs (Z.quot a b) <= Z.abs a.
Proof.
  intros Hb Hk. rewrite <- Z.quot_abs by exact Hb.
  pose proof (Z.mul_quot_le (Z.abs a) (Z.abs b) ltac:(lia) ltac:(lia)).
  pose proof (Z.mul_le_mono_nonneg_r k (Z.abs b) (Z.abs a ÷ Z.abs b) ltac:(apply Z.quot_pos; lia) ltac:(lia)).
  lia.
Qed.

(** For uint, quotient and remainder of in-range operands are always in range, so the
    code's unchecked [Ok] agrees with the checked specification. *)
Lemma uint_op_exact o a b : in_u64 a = true -> in_u64 b = true ->
  apply_op o (VUInt a) (VUInt b) =
  match exact o a b with
  | None => Err EDivZero
  | Some r => if in_u64 r then Ok (VUInt r) else Err EOverflow
  end.
Proof.
  rewrite !in_u64_iff. intros Ha Hb.
  destruct o; unfold exact; cbn [apply_op v_add v_sub v_mul v_div v_rem chk_u64];
    try reflexivity; destruct (Z.eqb_spec b 0) as [|Hn]; try reflexivity.
  - pose proof (quot_abs_le a b 1 Hn ltac:(lia)). pose proof (Z.quot_pos a b ltac:(lia) ltac:(lia)).
    rewrite (proj2 (in_u64_iff (Z.quot a b))) by lia. reflexivity.
  - pose proof (Z.rem_bound_pos a b ltac:(lia) ltac:(lia)).
    rewrite (proj2 (in_u64_iff (Z.rem a b))) by lia. reflexivity.
Qed.

Definition is_num (v : value) : bool :=
  match v with VInt _ | VUInt _ | VDbl _ => true | _ => false end.
Definition same_kind (a b : value) : bool :=
  match a, b with
  | VInt _, VInt _ | VUInt _, VUInt _ | VDbl _, VDbl _ => true
  | _, _ => false
  end.

Lemma neg_exact a : v_neg (VInt a) = if in_i64 (- a) then Ok (VInt (- a)) else Err EOverflow.
Proof. reflexivity. Qed.

Lemma neg_in_i64 a : in_i64 a = true -> in_i64 (- a) = negb (a =? i64_min).
Proof. unfold in_i64, i64_min, i64_max. lia. Qed.

Lemma quot_in_i64 a b : in_i64 a = true -> b <> 0 ->
  in_i64 (Z.quot a b) = negb ((a =? i64_min) && (b =? -1)).
Proof.
  intros Ha Hn. destruct (Z.eq_dec b (-1)) as [->|H1].
  - change (-1) with (- (1)). rewrite Z.quot_opp_r, Z.quot_1_r, (neg_in_i64 a Ha) by lia.
    now rewrite andb_true_r.
  - (* otherwise the quotient is [a] itself or at most half its size *)
    assert (Z.quot a b = a \/ 2 * Z.abs (Z.quot a b) <= Z.abs a).
    { destruct (Z.eq_dec b 1) as [->|H2]; [left; apply Z.quot_1_r|right; apply quot_abs_le; lia]. }
    unfold in_i64, i64_min, i64_max in *. lia.
Qed.

Definition min_rem_neg1 (o : aop) (a b : Z) : bool :=
  match o with ORem => (a =? i64_min) && (b =? -1) | _ => false end.

Lemma int_char o a b : in_i64 a = true -> in_i64 b = true ->
  apply_op o (VInt a) (VInt b) =
  match exact o a b with
  | None => Err EDivZero
  | Some r => if in_i64 r && negb (min_rem_neg1 o a b) then Ok (VInt r) else Err EOverflow
  end.
Proof.
  intros Ha Hb. rewrite int_op_exact. unfold int_spec.
  destruct o; cbn [exact min_rem_neg1 negb]; try (now rewrite andb_true_r);
    (destruct (Z.eqb_spec b 0) as [|Hn]; [reflexivity|]).
  - now rewrite andb_true_r.
  - (* the remainder is smaller than the divisor, so only the quotient can overflow *)
    pose proof (Z.rem_bound_abs a b Hn). rewrite (quot_in_i64 a b Ha Hn).
    replace (in_i64 (Z.rem a b)) with true by (unfold in_i64, i64_min, i64_max in *; lia). reflexivity.
Qed.
