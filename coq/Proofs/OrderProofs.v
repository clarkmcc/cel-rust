(** C07: each operand is evaluated at most once, left to right, in bounded work. *)
From Coq Require Import String.
From Cel.Model Require Import Eval.
From Cel.Proofs Require Import BaseFacts EvalBase.
From Coq Require Import Lia.

Definition logs_of (rs : list result) : list event := concat (map snd rs).

(** Extractor lists that resolve every argument at most once: no [Arguments] at all, or
    [Arguments] alone.  (A signature mixing [Arguments] with positional or receiver parameters
    resolves those arguments a second time - by construction of the extractors: [Arguments]
    resolves all arguments whatever the argument index is; no built-in has such a signature.) *)
Definition no_xargs (p : extractor) : bool := match p with XArgs => false | _ => true end.
Definition args_once (ps : list extractor) : bool :=
  forallb no_xargs ps || match ps with [XArgs] => true | _ => false end.

Lemma logs_of_skipn idx (rs : list result) r l0 : nth_error rs idx = Some (r, l0) ->
  length (logs_of (skipn idx rs)) = (length l0 + length (logs_of (skipn (S idx) rs)))%nat.
Proof.
  revert idx. induction rs as [|x rs IH]; intros [|i] E; try discriminate.
  - injection E as ->. unfold logs_of. cbn [skipn map concat snd]. apply app_length.
  - exact (IH i E).
Qed.

Lemma logs_of_skipn_S idx (rs : list result) :
  (length (logs_of (skipn (S idx) rs)) <= length (logs_of (skipn idx rs)))%nat.
Proof.
  destruct (nth_error rs idx) as [[r l0]|] eqn:E; [rewrite (logs_of_skipn _ _ _ _ E); lia|].
  apply nth_error_None in E. rewrite !skipn_all2 by lia. apply le_n.
Qed.

(** One extractor other than [Arguments] appends the log of the argument it moves past, if it
    moves: the log grows by logs of arguments at indices >= idx only, each at most once. *)
Definition grows (rs : list result) (idx : nat) (log : list event) (r : xstep_result) : Prop :=
  match r with
  | inl (_, idx', log') =>
      exists used, log' = log ++ used /\
        (length used + length (logs_of (skipn idx' rs)) <= length (logs_of (skipn idx rs)))%nat
  | inr (_, log') =>
      exists used, log' = log ++ used /\ (length used <= length (logs_of (skipn idx rs)))%nat
  end.

Lemma xconv_grows t opt v rs idx log idx' used :
  (length used + length (logs_of (skipn idx' rs)) <= length (logs_of (skipn idx rs)))%nat ->
  grows rs idx log (xconv t opt v idx' (log ++ used)).
Proof.
  intros H. unfold xconv. destruct (from_value t opt v); exists used; (split; [reflexivity|lia]).
Qed.

Lemma xpos_grows t opt rs idx log : grows rs idx log (xpos t opt rs idx log).
Proof.
  unfold xpos. destruct (nth_error rs idx) as [[[v|c|s] l0]|] eqn:E.
  - apply xconv_grows. rewrite (logs_of_skipn _ _ _ _ E). lia.
  - exists l0. rewrite (logs_of_skipn _ _ _ _ E). split; [reflexivity|lia].
  - exists l0. rewrite (logs_of_skipn _ _ _ _ E). split; [reflexivity|lia].
  - exists []. split; [now rewrite app_nil_r|apply Nat.le_0_l].
Qed.

Lemma xstep_grows p this rs es idx log : no_xargs p = true ->
  grows rs idx log (xstep p this rs es idx log).
Proof.
  assert (Same : forall x, grows rs idx log (inl (x, idx, log)))
    by (intros x; exists []; split; [now rewrite app_nil_r|apply le_n]).
  assert (Next : forall x, grows rs idx log (inl (x, S idx, log)))
    by (intros x; exists []; split; [now rewrite app_nil_r|apply logs_of_skipn_S]).
  assert (Stop : forall o, grows rs idx log (inr (o, log)))
    by (intros x; exists []; split; [now rewrite app_nil_r|apply Nat.le_0_l]).
  destruct p; try discriminate; intros _; cbn [xstep]; try apply xpos_grows.
  1, 2: destruct this as [v|]; [|apply xpos_grows]; unfold xrecv, xconv;
    destruct (from_value _ _ v); auto.
  - destruct (nth_error es idx) as [[]|]; auto.
  - destruct (nth_error es idx); auto.
Qed.

Lemma extract_log_noargs ps : forallb no_xargs ps = true ->
  forall this rs es idx acc log o l,
  extract ps this rs es idx acc log = (o, l) ->
  exists used, l = log ++ used /\ (length used <= length (logs_of (skipn idx rs)))%nat.
Proof.
  induction ps as [|p ps IH]; intros Hp this rs es idx acc log o l H.
  - injection H as _ <-. exists []. split; [now rewrite app_nil_r|apply Nat.le_0_l].
  - cbn [forallb] in Hp. apply andb_true_iff in Hp as [Hp1 Hp]. rewrite extract_cons in H.
    pose proof (xstep_grows p this rs es idx log Hp1) as G.
    destruct (xstep p this rs es idx log) as [[[x idx'] log']|[o' l']]; cbn [grows] in G.
    + destruct G as (u1 & -> & L1). destruct (IH Hp _ _ _ _ _ _ _ _ H) as (u2 & -> & L2).
      exists (u1 ++ u2). rewrite app_assoc, app_length. split; [reflexivity|lia].
    + injection H as _ <-. exact G.
Qed.

Lemma all_args_log rs : forall vs lg,
  exists used, (length used <= length (logs_of rs))%nat /\
    match all_args rs vs lg with inl (_, lg') | inr (_, lg') => lg' = lg ++ used end.
Proof.
  induction rs as [|[r l0] rs IH]; intros vs lg; cbn [all_args].
  - exists []. split; [apply le_n|now rewrite app_nil_r].
  - unfold logs_of. cbn [map concat snd]. rewrite app_length.
    destruct r as [v|c|s]; [|exists l0; split; [lia|reflexivity]..].
    destruct (IH (v :: vs) (lg ++ l0)) as (used & Hu & E). exists (l0 ++ used).
    rewrite app_length, app_assoc. split; [unfold logs_of in Hu; lia|exact E].
Qed.

Lemma extract_log_once ps : args_once ps = true ->
  forall this rs es acc log o l,
  extract ps this rs es 0 acc log = (o, l) ->
  exists used, l = log ++ used /\ (length used <= length (logs_of rs))%nat.
Proof.
  intros Ha this rs es acc log o l H. unfold args_once in Ha. apply orb_true_iff in Ha as [Ha|Ha].
  - exact (extract_log_noargs ps Ha _ _ _ _ _ _ _ _ H).
  - destruct ps as [|[] [|? ?]]; try discriminate.
    rewrite extract_xargs in H. destruct (all_args_log rs [] log) as (used & Hu & E).
    exists used. split; [|exact Hu].
    destruct (all_args rs [] log) as [[vs lg]|[o' lg']]; injection H as _ <-; exact E.
Qed.

Open Scope nat_scope.
Fixpoint ncalls (e : expr) : nat :=
  match e with
  | EUnspec | ELit _ | EIdent _ => 0
  | ECall _ t args =>
      1 + match t with Some t' => ncalls t' | None => 0 end +
      (fix go (l : list expr) : nat := match l with [] => 0 | a :: l' => ncalls a + go l' end) args
  | ESelect o _ _ => ncalls o
  | EList es => (fix go (l : list expr) : nat := match l with [] => 0 | a :: l' => ncalls a + go l' end) es
  | EMap es => (fix go (l : list (expr * expr)) : nat :=
                  match l with [] => 0 | (k, v) :: l' => ncalls k + ncalls v + go l' end) es
  | EStruct _ _ => 0
  | EComp r _ _ i c s res => ncalls r + ncalls i + ncalls c + ncalls s + ncalls res
  end.

Fixpoint no_comp (e : expr) : Prop :=
  match e with
  | EUnspec | ELit _ | EIdent _ | EStruct _ _ => True
  | ECall _ t args =>
      match t with Some t' => no_comp t' | None => True end /\
      (fix go (l : list expr) : Prop := match l with [] => True | a :: l' => no_comp a /\ go l' end) args
  | ESelect o _ _ => no_comp o
  | EList es => (fix go (l : list expr) : Prop := match l with [] => True | a :: l' => no_comp a /\ go l' end) es
  | EMap es => (fix go (l : list (expr * expr)) : Prop :=
                  match l with [] => True | (k, v) :: l' => no_comp k /\ no_comp v /\ go l' end) es
  | EComp _ _ _ _ _ _ _ => False
  end.

Definition once_ctx (c : ctx) : Prop := Forall (fun nd => args_once (params (snd nd)) = true) (funs c).

Lemma default_ctx_once : once_ctx default_ctx.
Proof. unfold once_ctx, default_ctx, default_funs; cbn [funs]. repeat constructor. Qed.

Lemma get_function_once c f d : once_ctx c -> get_function c f = Some d -> args_once (params d) = true.
Proof. apply (get_function_Forall (fun d => args_once (params d) = true)). Qed.

Definition loglen (r : result) : nat := length (snd r).

Lemma rbind_loglen r k n m : (loglen r <= n)%nat -> (forall v, loglen (k v) <= m)%nat ->
  (loglen (rbind r k) <= n + m)%nat.
Proof.
  intros Hr Hk. destruct r as [[v|c|s] l]; unfold loglen in *; cbn [rbind snd] in *; try lia.
  specialize (Hk v). destruct (k v) as [o l']. cbn [snd] in *. rewrite app_length. lia.
Qed.

Lemma rbind_loglen_add r k m : (forall v, loglen (k v) <= m)%nat -> (loglen (rbind r k) <= loglen r + m)%nat.
Proof. apply rbind_loglen, le_n. Qed.

Lemma prepend_loglen log r : loglen (prepend log r) = length log + loglen r.
Proof. destruct r. apply app_length. Qed.

Lemma call_fn_loglen name d this rs es log0 : args_once (params d) = true ->
  (loglen (call_fn name d this rs es log0) <= length log0 + length (logs_of rs) + 1)%nat.
Proof.
  intros Ha. unfold call_fn, loglen.
  destruct (extract (params d) this rs es 0 [] log0) as [o l] eqn:E.
  destruct (extract_log_once _ Ha _ _ _ _ _ _ _ E) as (used & -> & Hu).
  destruct o as [xs|c|s]; cbn [snd]; [destruct (body d); cbn [snd]|..]; rewrite ?app_length; cbn [length]; lia.
Qed.

Lemma logs_of_cons r rs : length (logs_of (r :: rs)) = (loglen r + length (logs_of rs))%nat.
Proof. unfold logs_of, loglen. cbn [map concat]. now rewrite app_length. Qed.

Lemma logs_of_map {A} (ev : A -> result) l :
  length (logs_of (map ev l)) = list_sum (map (fun a => loglen (ev a)) l).
Proof.
  induction l as [|a l IH]; [reflexivity|]. cbn [map list_sum fold_right]. now rewrite logs_of_cons, IH.
Qed.

Lemma call_dispatch_loglen c f rt rs args : once_ctx c ->
  loglen (call_dispatch c f rt rs args) <=
  1 + match rt with Some r => loglen r | None => 0 end + length (logs_of rs).
Proof.
  intros Hc. apply call_dispatch_cases.
  - unfold call_general. destruct (get_function c f) as [d|] eqn:E; [|apply Nat.le_0_l].
    pose proof (get_function_once c f d Hc E) as Hd.
    destruct rt as [[[tv|x|s] lt]|]; [|unfold loglen; cbn [snd]; lia..|].
    + pose proof (call_fn_loglen f d (Some tv) rs args lt Hd). unfold loglen in *. cbn [snd] in *. lia.
    + pose proof (call_fn_loglen f d None rs args [] Hd). cbn [length] in *. lia.
  - intros o ra -> _. rewrite logs_of_cons. eapply Nat.le_trans; [apply (rbind_loglen_add _ _ 0)|lia].
    intros v. apply le_n.
  - intros rl rr -> _. rewrite !logs_of_cons. eapply Nat.le_trans; [apply (rbind_loglen_add _ _ (loglen rr))|lia].
    intros l. destruct (to_bool l); [apply Nat.le_0_l|apply le_n].
  - intros rl rr -> _. rewrite !logs_of_cons.
    eapply Nat.le_trans; [apply (rbind_loglen_add _ _ (loglen rr + 0))|lia].
    intros l. destruct (to_bool l); [|apply Nat.le_0_l]. apply rbind_loglen_add. intros r. apply le_n.
  - intros o rl rr -> _ _ _. rewrite !logs_of_cons.
    eapply Nat.le_trans; [apply (rbind_loglen_add _ _ (loglen rr + 0))|lia].
    intros l. apply rbind_loglen_add. intros r. apply le_n.
  - intros rc rx ry -> _. rewrite !logs_of_cons.
    eapply Nat.le_trans; [apply (rbind_loglen_add _ _ (loglen rx + loglen ry))|lia].
    intros vc. destruct (to_bool vc); lia.
Qed.

Lemma list_go_loglen ev l : forall acc,
  loglen (list_go ev l acc []) <= list_sum (map (fun a => loglen (ev a)) l).
Proof.
  induction l as [|a l IH]; intros acc; [apply le_n|].
  rewrite list_go_cons. cbn [map list_sum fold_right]. apply rbind_loglen_add. intros v. apply IH.
Qed.

Lemma map_go_loglen ev l : forall m,
  loglen (map_go ev l m []) <=
  list_sum (map (fun kv => loglen (ev (fst kv)) + loglen (ev (snd kv))) l).
Proof.
  induction l as [|[k v] l IH]; intros m; [apply le_n|].
  rewrite map_go_cons. cbn [map list_sum fold_right fst snd]. rewrite <- Nat.add_assoc.
  apply rbind_loglen_add. intros kv.
  destruct (key_of_value kv); [|apply Nat.le_0_l]. apply rbind_loglen_add. intros vv. apply IH.
Qed.

Lemma list_order c es (rs : list (value * list event)) :
  Forall2 (fun e r => eval c e = (Ok (fst r), snd r)) es rs ->
  eval c (EList es) = (Ok (VList (map fst rs)), concat (map snd rs)).
Proof.
  intros H. rewrite eval_list.
  assert (G : forall acc log,
    list_go (eval c) es acc log = (Ok (VList (rev' acc ++ map fst rs)), log ++ concat (map snd rs))).
  { induction H as [|e [v l] es rs He _ IH]; intros acc log; cbn [list_go map concat fst snd].
    - now rewrite !app_nil_r.
    - cbn [fst snd] in He. rewrite He, IH, rev'_cons. now rewrite <- app_assoc. }
  apply G.
Qed.

(** KNOWN FINDING K02.  The hypothesis [once_ctx] cannot be dropped: a host function whose
    signature combines the all-arguments extractor with another extractor that has already
    resolved an argument evaluates that argument again.  Witness [mixprog]: [va] : (This, Arguments)
    - the function the harness calls `ta` - called in function style on one logged argument: one
    argument expression, two evaluations. *)
Definition mixctx : ctx :=
  add_function (add_function default_ctx $"tag" {| params := [XArg TyValue; XArg TyValue]; body := FHost (HArg 1) |})
               $"va" {| params := [XThis TyValue; XArgs]; body := FHost (HArg 1) |}.
Definition mixprog : expr := ECall $"va" None [ECall $"tag" None [ELit (VInt 1); ELit (VInt 10)]].
(** The same function called in receiver style evaluates its receiver and its argument once each. *)
Example mixed_receiver_style_once :
  loglen (eval mixctx (ECall $"va" (Some (ECall $"tag" None [ELit (VInt 1); ELit (VInt 10)]))
                             [ECall $"tag" None [ELit (VInt 2); ELit (VInt 20)]])) = 3.
Proof. reflexivity. Qed.
