(** C01: the lexer always makes progress and its fuel is never what makes it fail. *)
From Coq Require Import String Lia.
From Cel.Model Require Import Lexer.
Open Scope nat_scope.

Lemma span_spec (p : N -> bool) s : forall a b, span p s = (a, b) ->
  s = a ++ b /\ forallb p a = true /\ match b with c :: _ => p c = false | [] => True end.
Proof.
  induction s as [|c s IH]; intros a b; cbn [span].
  - intros [= <- <-]. repeat split.
  - destruct (p c) eqn:E.
    + destruct (span p s) as [a' b'] eqn:Es. intros [= <- <-].
      destruct (IH a' b' eq_refl) as (-> & H2 & H3). repeat split; [cbn; now rewrite E, H2|exact H3].
    + intros [= <- <-]. repeat split. exact E.
Qed.

Lemma span_app_stop (p : N -> bool) a b : forallb p a = true ->
  match b with c :: _ => p c = false | [] => True end -> span p (a ++ b) = (a, b).
Proof.
  induction a as [|x a IH]; cbn [app forallb span]; intros Ha Hb.
  - destruct b as [|c b]; [reflexivity|]. cbn [span]. now rewrite Hb.
  - apply andb_prop in Ha as [Hx Ha]. rewrite Hx, (IH Ha Hb). reflexivity.
Qed.

Lemma span_len p s : length (fst (span p s)) + length (snd (span p s)) = length s.
Proof.
  destruct (span p s) as [a b] eqn:E. destruct (span_spec p s a b E) as (-> & _).
  cbn [fst snd]. now rewrite app_length.
Qed.

Lemma span_head p c s : p c = true -> length (snd (span p (c :: s))) < length (c :: s).
Proof.
  intros H. cbn [span]. rewrite H. pose proof (span_len p s) as L. destruct (span p s) as [a b]. cbn [fst snd length] in *. lia.
Qed.

Lemma string_len_pos raw s n : string_len raw s = Some n -> 1 <= n.
Proof.
  unfold string_len. destruct s as [|q r]; [discriminate|]. destruct ((q =? 34) || (q =? 39))%N; [|discriminate].
  destruct (scan_short _ q raw r 0) as [a|]; cbn [option_map].
  - match goal with |- match ?l with _ => _ end = _ -> _ => destruct l as [b|] end; intros [= <-]; [destruct b|]; lia.
  - destruct r as [|q2 [|q3 r3]]; try discriminate. destruct ((q2 =? q) && (q3 =? q))%N; [|discriminate].
    destruct (scan_long _ q raw r3 0); [|discriminate]. intros [= <-]. lia.
Qed.
Lemma string_tok_len_pos s n : string_tok_len s = Some n -> 1 <= n.
Proof.
  unfold string_tok_len. destruct s as [|c r]; [discriminate|].
  destruct ((c =? ch "r") || (c =? ch "R"))%N.
  - destruct (string_len true r) as [k|]; cbn [option_map]; [intros [= <-]; lia|discriminate].
  - apply string_len_pos.
Qed.
Lemma bytes_tok_len_pos s n : bytes_tok_len s = Some n -> 1 <= n.
Proof.
  unfold bytes_tok_len. destruct s as [|c r]; [discriminate|]. destruct ((c =? ch "b") || (c =? ch "B"))%N; [|discriminate].
  destruct (string_tok_len r); cbn [option_map]; [intros [= <-]; lia|discriminate].
Qed.
Lemma skipn_lt {A} n (s : list A) : 1 <= n -> s <> [] -> length (skipn n s) < length s.
Proof. intros Hn Hs. rewrite skipn_length. destruct s; [congruence|]. cbn [length]. lia. Qed.

(** no string or bytes literal starts at a character that is no quote and, not being a letter, no prefix *)
Lemma string_len_other raw c s : ((c =? 34) || (c =? 39))%N = false -> string_len raw (c :: s) = None.
Proof. intros H. unfold string_len. now rewrite H. Qed.

Lemma no_literal_head c s : ((c =? 34) || (c =? 39))%N = false -> is_letter c = false ->
  bytes_tok_len (c :: s) = None /\ string_tok_len (c :: s) = None.
Proof.
  intros Hq Hl.
  assert (Hp : forall k, is_letter k = true -> (c =? k)%N = false) by (intros k Hk; apply N.eqb_neq; intros ->; congruence).
  unfold bytes_tok_len, string_tok_len. rewrite !Hp by reflexivity. split; [reflexivity|now apply string_len_other].
Qed.

(** numbers: every candidate length is positive, so the chosen one is *)
Definition cand_pos (o : option (numkind * nat)) : Prop := match o with Some (_, x) => 1 <= x | None => True end.
Definition len_pos (o : option nat) : Prop := match o with Some x => 1 <= x | None => True end.

Lemma best_cand_pos a b : cand_pos a -> cand_pos b -> cand_pos (best_num a b).
Proof.
  destruct a as [[ka x]|], b as [[kb y]|]; intros Ha Hb; try exact Ha; try exact Hb; try exact I.
  unfold best_num. destruct (Nat.ltb x y); [exact Hb|exact Ha].
Qed.

Lemma cand_pos_merge k o1 o2 : len_pos o1 -> len_pos o2 ->
  cand_pos (match o1, o2 with
       | Some a, Some b => Some (k, Nat.max a b)
       | Some a, None => Some (k, a)
       | None, Some b => Some (k, b)
       | None, None => None
       end).
Proof. destruct o1, o2; cbn [len_pos cand_pos]; intros; try exact I; lia. Qed.

Lemma len_pos_if (b : bool) x : 1 <= x -> len_pos (if b then Some x else None).
Proof. intros H. now destruct b. Qed.

Lemma num_tok_pos s k n : num_tok s = Some (k, n) -> 1 <= n.
Proof.
  unfold num_tok. destruct (span is_digit s) as [ds r] eqn:E.
  destruct ds as [|d ds'].
  - destruct s as [|c r1]; [discriminate|]. destruct (c =? 46)%N; [|discriminate].
    destruct (span is_digit r1) as [fs r2]. destruct fs; [discriminate|]. intros [= _ <-]. lia.
  - set (n0 := length (d :: ds')). assert (Hn : 1 <= n0) by (unfold n0; cbn [length]; lia). clearbody n0.
    intros H.
    match type of H with ?b = _ => enough (G : cand_pos b) by (rewrite H in G; exact G) end.
    apply best_cand_pos; [apply best_cand_pos|]; [apply cand_pos_merge| |apply cand_pos_merge].
    + destruct r as [|c r1]; [exact I|]. destruct (c =? 46)%N; [|exact I].
      destruct (span is_digit r1) as [fs r2]. destruct fs; cbn [len_pos]; [exact I|lia].
    + destruct (exponent_len r); cbn [option_map len_pos]; [lia|exact I].
    + cbn [cand_pos]. destruct s as [|z [|x r1]]; try lia.
      destruct ((z =? 48) && (x =? ch "x"))%N; [|lia].
      destruct (span is_hex r1) as [hs r2]. destruct hs; lia.
    + apply len_pos_if. lia.
    + destruct s as [|z [|x r1]]; try exact I. destruct ((z =? 48) && (x =? ch "x"))%N; [|exact I].
      destruct (span is_hex r1) as [hs r2]. destruct hs; [exact I|]. apply len_pos_if. lia.
Qed.

Lemma lex_one_progress s t rest : lex_one s = Some (t, rest) -> length rest < length s.
Proof.
  unfold lex_one. destruct s as [|c r]; [discriminate|].
  destruct (bytes_tok_len (c :: r)) as [n|] eqn:Eb.
  { apply bytes_tok_len_pos in Eb. intros [= _ <-]. apply skipn_lt; [exact Eb|discriminate]. }
  destruct (string_tok_len (c :: r)) as [n|] eqn:Es.
  { apply string_tok_len_pos in Es. intros [= _ <-]. apply skipn_lt; [exact Es|discriminate]. }
  destruct (is_ws c) eqn:Ew.
  { pose proof (span_head is_ws c r Ew) as L. destruct (span is_ws (c :: r)) as [a b]. intros [= _ <-]. exact L. }
  destruct (is_ident_start c) eqn:Ei.
  { assert (Hc : is_ident_char c = true) by (unfold is_ident_start, is_ident_char in *; apply Bool.orb_true_iff in Ei as [->| ->]; [reflexivity|now rewrite Bool.orb_true_r]).
    pose proof (span_head is_ident_char c r Hc) as L. destruct (span is_ident_char (c :: r)) as [a b]. intros [= _ <-]. exact L. }
  destruct (num_tok (c :: r)) as [[k n]|] eqn:En.
  { apply num_tok_pos in En. intros [= _ <-]. apply skipn_lt; [exact En|discriminate]. }
  destruct (c =? 96)%N.
  { pose proof (span_len is_esc_ident_char r) as L. destruct (span is_esc_ident_char r) as [body r2]. cbn [fst snd] in L.
    destruct body as [|b0 body']; [discriminate|]. destruct r2 as [|q rest']; [discriminate|].
    destruct (q =? 96)%N; [|discriminate]. intros [= _ <-]. cbn [length] in *. lia. }
  (* what is left: the comment rule (// up to the line's end) and the operators of two
     characters and of one, each a test on [c] and possibly on the head of [r] *)
  repeat match goal with
         | |- (if ?b then _ else _) = _ -> _ => destruct b
         | |- match (match r with _ => _ end) with _ => _ end = _ -> _ => destruct r as [|x r']
         | |- match (if ?b then _ else _) with _ => _ end = _ -> _ => destruct b
         end;
  try discriminate; try (intros [= _ <-]; cbn [length]; lia).
  all: try (pose proof (span_len (fun x => negb (x =? 10)%N) r') as L; destruct (span (fun x => negb (x =? 10)%N) r') as [a b];
            cbn [fst snd] in L; intros [= _ <-]; cbn [length]; lia).
Qed.

(** the lexer's fuel (one more than the number of characters) is never what makes it fail:
    when [lex] answers [None], following the lexer's own steps from the source one arrives at
    a non-empty remainder at which no token (and no blank or comment) starts *)
Inductive reach : str -> str -> Prop :=
| reach_refl s : reach s s
| reach_step a t b c : lex_one a = Some (t, b) -> reach b c -> reach a c.

Lemma lex_fuel_fail f : forall s acc, length s < f -> lex_fuel f s acc = None ->
  exists suf, reach s suf /\ suf <> [] /\ lex_one suf = None.
Proof.
  induction f as [|f IH]; intros s acc Hf H; [lia|].
  destruct s as [|c r]; [discriminate|]. cbn [lex_fuel] in H.
  destruct (lex_one (c :: r)) as [[t rest]|] eqn:E.
  - pose proof (lex_one_progress _ _ _ E) as L.
    assert (Hr : exists acc', lex_fuel f rest acc' = None) by (destruct t; eauto).
    destruct Hr as [acc' Hr]. destruct (IH rest acc' ltac:(lia) Hr) as (suf & R & Hn & Hl).
    exists suf. split; [eapply reach_step; eassumption|]. split; assumption.
  - exists (c :: r). split; [constructor|]. split; [discriminate|exact E].
Qed.

Theorem lex_none_genuine s : lex s = None -> exists suf, reach s suf /\ suf <> [] /\ lex_one suf = None.
Proof. apply lex_fuel_fail. lia. Qed.

(** when [lex] answers, the lexer's own steps lead from the source to its end *)
Theorem lex_some_reaches s ts : lex s = Some ts -> reach s [].
Proof.
  unfold lex. generalize (S (length s)) as f, (@nil tk) as acc. intros f. revert s ts.
  induction f as [|f IH]; intros s ts acc H.
  - destruct s; [constructor|discriminate].
  - destruct s as [|c r]; [constructor|]. cbn [lex_fuel] in H.
    destruct (lex_one (c :: r)) as [[t rest]|] eqn:E; [|discriminate].
    destruct t; (eapply reach_step; [exact E|eapply IH; exact H]).
Qed.

Lemma In_skipn {A} (x : A) k l : In x (skipn k l) -> In x l.
Proof.
  revert l; induction k as [|k IH]; intros l H; [exact H|].
  destruct l as [|y l]; [destruct H|]. right. now apply IH.
Qed.

(** Over a body without the quote the short scanner finds no end, whatever its fuel. *)
Lemma scan_short_unterminated fuel : forall q raw s n, ~ In q s -> scan_short fuel q raw s n = None.
Proof.
  induction fuel as [|fuel IH]; intros q raw s n Hq; cbn [scan_short]; [reflexivity|].
  destruct s as [|c r]; [reflexivity|].
  destruct (c =? q)%N eqn:E; [apply N.eqb_eq in E; subst; exfalso; apply Hq; now left|].
  destruct ((c =? 10) || (c =? 13))%N; [reflexivity|].
  assert (Hr : ~ In q r) by (intros H; apply Hq; now right).
  destruct ((c =? 92)%N && negb raw).
  - destruct (esc_len r) as [k|]; [|reflexivity]. apply IH. intros H. apply Hr. eapply In_skipn; eauto.
  - now apply IH.
Qed.
