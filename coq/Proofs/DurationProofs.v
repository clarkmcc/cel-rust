(** C15: the language of durations. *)
From Coq Require Import String.
From Cel.Model Require Import Duration.
From Cel.Proofs Require Import BaseFacts LexerTotal.
Open Scope Z_scope.

(** A term: decimal number (digits, optionally '.' and digits; or '.' and digits - at least one
    digit in all) immediately followed by one of the units. *)
Definition is_unit (u : str) : Prop := exists ns, unit_ns u = Some ns.
Definition is_term (t : str) : Prop :=
  exists ip dot fp u, t = ip ++ dot ++ fp ++ u /\
    forallb is_digit ip = true /\ forallb is_digit fp = true /\
    (dot = [] /\ fp = [] \/ dot = [46%N]) /\ ip ++ fp <> [] /\ is_unit u /\
    forallb (fun c => negb (is_num_char c)) u = true.

(** what may follow a term: nothing, or the number of the next term *)
Definition stop_ok (rest : str) : Prop :=
  match rest with c :: _ => is_num_char c = true | [] => True end.

(** the optional '.' and digits after the integer digits, as [parse_term] reads them (and typed
    as there, so that [fold] finds it) *)
Definition opt_frac (r : str) : list N * str :=
  match r with
  | d :: r' => if (d =? 46)%N then span is_digit r' else ([], r)
  | [] => ([], r)
  end.

Lemma opt_frac_spec r fp r1 : opt_frac r = (fp, r1) ->
  exists dot, r = dot ++ fp ++ r1 /\ forallb is_digit fp = true /\ (dot = [] /\ fp = [] \/ dot = [46%N]).
Proof.
  destruct r as [|d r']; cbn [opt_frac]; [intros [= <- <-]; exists []; cbn; auto|].
  destruct (N.eqb_spec d 46) as [->|_].
  - intros E. destruct (span_spec _ _ _ _ E) as (-> & Hfp & _). exists [46%N]. auto.
  - intros [= <- <-]. exists []. auto.
Qed.

Lemma parse_term_spec s v rest : parse_term s = Some (v, rest) ->
  exists t, s = t ++ rest /\ is_term t /\ stop_ok rest.
Proof.
  unfold parse_term. destruct (span is_digit s) as [ip r] eqn:E1.
  destruct (span_spec _ _ _ _ E1) as (-> & Hip & _).
  fold (opt_frac r). destruct (opt_frac r) as [fp r1] eqn:E2.
  destruct (opt_frac_spec _ _ _ E2) as (dot & -> & Hfp & Hdot).
  destruct (ip ++ fp) eqn:Eip; [discriminate|].
  assert (Hne : ip ++ fp <> []) by (rewrite Eip; discriminate). clear Eip.
  destruct (span (fun c => negb (is_num_char c)) r1) as [u rest'] eqn:E3.
  destruct (span_spec _ _ _ _ E3) as (-> & Hu & Hrest).
  destruct (unit_ns u) as [ns|] eqn:Eu; [|discriminate].
  destruct (limit63 <? dec_num ip 0 * ns); [discriminate|]. intros [= <- <-].
  exists (ip ++ dot ++ fp ++ u). split; [now rewrite <- !app_assoc|]. split.
  - exists ip, dot, fp, u.
    split; [reflexivity|split; [exact Hip|split; [exact Hfp|split; [exact Hdot|split; [exact Hne|split; [now exists ns|exact Hu]]]]]].
  - destruct rest' as [|c ?]; [exact I|]. now apply negb_false_iff in Hrest.
Qed.

Lemma parse_terms_spec fuel : forall s total d, parse_terms fuel s total = Some d ->
  exists terms, s = concat terms /\ Forall is_term terms.
Proof.
  induction fuel as [|f IH]; intros s total d; cbn [parse_terms].
  - destruct s; [intros _; exists []; split; [reflexivity|constructor]|discriminate].
  - destruct s as [|c s]; [intros _; exists []; split; [reflexivity|constructor]|].
    destruct (parse_term (c :: s)) as [[t rest]|] eqn:E; [|discriminate].
    destruct (limit63 <? total + t); [discriminate|]. intros H.
    destruct (parse_term_spec _ _ _ E) as (tm & Es & Ht & _).
    destruct (IH _ _ _ H) as (terms & -> & Hts).
    exists (tm :: terms). split; [exact Es|now constructor].
Qed.

(** Accepted strings: optional sign, then "0" or a non-empty sequence of terms - the whole
    string, nothing else. *)
Theorem parse_language s d : parse_duration s = Some d ->
  exists sign body, s = sign ++ body /\ (sign = [] \/ sign = [45%N] \/ sign = [43%N]) /\
    (body = $"0" \/ exists terms, terms <> [] /\ body = concat terms /\ Forall is_term terms).
Proof.
  unfold parse_duration.
  set (sr := match s with
             | c :: r' => if (c =? 45)%N then (true, r') else if (c =? 43)%N then (false, r') else (false, s)
             | [] => (false, s)
             end). destruct sr as [neg r] eqn:E.
  assert (S : exists sign, s = sign ++ r /\ (sign = [] \/ sign = [45%N] \/ sign = [43%N])).
  { subst sr. destruct s as [|c s']; [injection E as _ <-; exists []; auto|].
    destruct (c =? 45)%N eqn:E1; [apply N.eqb_eq in E1; subst; injection E as _ <-; exists [45%N]; auto|].
    destruct (c =? 43)%N eqn:E2; [apply N.eqb_eq in E2; subst; injection E as _ <-; exists [43%N]; auto|].
    injection E as _ <-. exists []. auto. }
  destruct S as (sign & -> & Hsign). intros H. exists sign, r. split; [reflexivity|split; [exact Hsign|]].
  destruct (str_eqb r $"0") eqn:E0.
  - left. now apply str_eqb_eq.
  - right. destruct r as [|c r']; [discriminate|].
    destruct (parse_terms (S (length (c :: r'))) (c :: r') 0) as [t|] eqn:Et; [|discriminate].
    destruct (parse_terms_spec _ _ _ _ Et) as (terms & Ec & Hts).
    exists terms. repeat split; auto. intros ->. discriminate.
Qed.

(** Round trip on evaluated durations (a test of the model; [DurationRoundtrip] proves it for
    every duration). *)
Definition dur_rt (d : Z) : bool :=
  match parse_duration (format_duration_str d) with Some d' => d' =? d | None => false end.
Lemma roundtrip_samples :
  forallb dur_rt [0; 1; -1; 999; 1000; 1001; -1500; 999999; 1000000; 1500000; 999999999; 1000000000;
                  1000000001; 59999999999; 60000000000; 3600000000000; 5400000000000; 4265176228;
                  629493380207408; 9223372036854775807; -9223372036854775808; -9223372036854775807;
                  86400000000000; -2000000000; 1100; 2200000; 3300000000] = true.
Proof. vm_compute. reflexivity. Qed.
