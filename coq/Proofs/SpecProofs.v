(** C03: the operational model refines the reference semantics on well-typed terms. *)
From Coq Require Import String.
From Cel.Model Require Import Spec.
From Cel.Proofs Require Import BaseFacts EvalBase ContextProofs LogicProofs MacroProofs NoCrash CallProofs.

Section TexprInd.
  Variable P : texpr -> Prop.
  Hypothesis Hlit : forall v, P (TLit v).
  Hypothesis Hvar : forall x, P (TVar x).
  Hypothesis Hun : forall o a, P a -> P (TUn o a).
  Hypothesis Hbin : forall o a b, P a -> P b -> P (TBin o a b).
  Hypothesis Hand : forall a b, P a -> P b -> P (TAnd a b).
  Hypothesis Hor : forall a b, P a -> P b -> P (TOr a b).
  Hypothesis Hcond : forall c a b, P c -> P a -> P b -> P (TCond c a b).
  Hypothesis Hlist : forall es, Forall P es -> P (TList es).
  Hypothesis Hmap : forall es, Forall (fun kv => P (fst kv) /\ P (snd kv)) es -> P (TMap es).
  Hypothesis Hsel : forall a f, P a -> P (TSelect a f).
  Hypothesis Hhas : forall a f, P a -> P (THas a f).
  Hypothesis Hcall : forall f recv args, Forall P args -> P (TCall f recv args).
  Hypothesis Hall : forall x r b, P r -> P b -> P (TAll x r b).
  Hypothesis Hexists : forall x r b, P r -> P b -> P (TExists x r b).
  Hypothesis Hone : forall x r b, P r -> P b -> P (TExistsOne x r b).
  Hypothesis Hmapm : forall x r flt b,
    P r -> match flt with Some p => P p | None => True end -> P b -> P (TMapM x r flt b).
  Hypothesis Hfilter : forall x r b, P r -> P b -> P (TFilter x r b).

  Fixpoint texpr_ind' (t : texpr) : P t :=
    let many := (fix go (l : list texpr) : Forall P l :=
                   match l with
                   | [] => Forall_nil _
                   | a :: l' => Forall_cons _ (texpr_ind' a) (go l')
                   end) in
    match t with
    | TLit v => Hlit v
    | TVar x => Hvar x
    | TUn o a => Hun o a (texpr_ind' a)
    | TBin o a b => Hbin o a b (texpr_ind' a) (texpr_ind' b)
    | TAnd a b => Hand a b (texpr_ind' a) (texpr_ind' b)
    | TOr a b => Hor a b (texpr_ind' a) (texpr_ind' b)
    | TCond c a b => Hcond c a b (texpr_ind' c) (texpr_ind' a) (texpr_ind' b)
    | TList es => Hlist es (many es)
    | TMap es =>
        Hmap es ((fix go (l : list (texpr * texpr)) : Forall (fun kv => P (fst kv) /\ P (snd kv)) l :=
                    match l with
                    | [] => Forall_nil _
                    | (k, v) :: l' => Forall_cons (k, v) (conj (texpr_ind' k) (texpr_ind' v)) (go l')
                    end) es)
    | TSelect a f => Hsel a f (texpr_ind' a)
    | THas a f => Hhas a f (texpr_ind' a)
    | TCall f recv args => Hcall f recv args (many args)
    | TAll x r b => Hall x r b (texpr_ind' r) (texpr_ind' b)
    | TExists x r b => Hexists x r b (texpr_ind' r) (texpr_ind' b)
    | TExistsOne x r b => Hone x r b (texpr_ind' r) (texpr_ind' b)
    | TMapM x r flt b =>
        Hmapm x r flt b (texpr_ind' r)
              (match flt as f0 return match f0 return Prop with Some p => P p | None => True end with
               | Some q => texpr_ind' q
               | None => I
               end)
              (texpr_ind' b)
    | TFilter x r b => Hfilter x r b (texpr_ind' r) (texpr_ind' b)
    end.
End TexprInd.

(** The nested loops of [sem] and [type_of], named. *)
Fixpoint seq_o (os : list (outcome value)) : outcome (list value) :=
  match os with
  | [] => Ok []
  | o :: os' => let! v := o in let! vs := seq_o os' in Ok (v :: vs)
  end.

Section Entries.
  Context {T : Type} (sm : T -> outcome value).
  Fixpoint entries_o (l : list (T * T)) (m : list (key * value)) : outcome value :=
    match l with
    | [] => Ok (VMap m)
    | (ke, ve) :: l' =>
        let! kv := sm ke in
        match key_of_value kv with
        | None => Err EInvalid
        | Some k => let! v := sm ve in entries_o l' (assoc_set k v m)
        end
    end.
End Entries.
Section WithTenv.
  Variable G : tenv.
  Fixpoint types_of (l : list texpr) : option (list ty) :=
    match l with
    | [] => Some []
    | e :: l' => match type_of G e, types_of l' with
                 | Some a, Some r => Some (a :: r)
                 | _, _ => None
                 end
    end.
  Fixpoint entries_ty (l : list (texpr * texpr)) : option ty :=
    match l with
    | [] => Some (TyM TyAny TyAny)
    | (ke, ve) :: l' =>
        match type_of G ke, type_of G ve with
        | Some _, Some _ => entries_ty l'
        | _, _ => None
        end
    end.
End WithTenv.

Lemma sem_many ρ es :
  (fix go (l : list texpr) : outcome (list value) :=
     match l with
     | [] => Ok []
     | e :: l' => let! v := sem ρ e in let! vs := go l' in Ok (v :: vs)
     end) es = seq_o (map (sem ρ) es).
Proof. induction es as [|e es IH]; [reflexivity|]. cbn [map seq_o]. now rewrite <- IH. Qed.

Lemma sem_tlist ρ es : sem ρ (TList es) = let! vs := seq_o (map (sem ρ) es) in Ok (VList vs).
Proof. cbn [sem]. now rewrite sem_many. Qed.
Lemma sem_tmap ρ es : sem ρ (TMap es) = entries_o (sem ρ) es [].
Proof. reflexivity. Qed.
Lemma sem_tcall ρ f recv args :
  sem ρ (TCall f recv args) = let! vs := seq_o (map (sem ρ) args) in apply_fn f vs.
Proof. cbn [sem]. now rewrite sem_many. Qed.
Lemma type_tlist G es :
  type_of G (TList es) = match types_of G es with
                         | Some [] => Some (TyL TyAny)
                         | Some (a :: r) => Some (TyL (fold_left join r a))
                         | None => None
                         end.
Proof. reflexivity. Qed.
Lemma type_tmap G es : type_of G (TMap es) = entries_ty G es.
Proof. reflexivity. Qed.
Lemma type_tcall G f recv args :
  type_of G (TCall f recv args) =
  match types_of G args with
  | Some ts => if recv then (if recv_ok f then match ts with [] => None | _ => fn_ty f ts end else None)
               else fn_ty f ts
  | None => None
  end.
Proof. reflexivity. Qed.

Lemma as_bool_ok v b : as_bool v = Ok b -> v = VBool b.
Proof. destruct v; cbn; try discriminate. now intros [= ->]. Qed.

Lemma ty_eqb_eq a : forall b, ty_eqb a b = true -> a = b.
Proof.
  induction a; intros [] H; cbn in H; try discriminate; try reflexivity.
  - f_equal. now apply IHa.
  - apply andb_prop in H as [H1 H2]. f_equal; [now apply IHa1|now apply IHa2].
Qed.

Lemma vtyped_any v : vtyped v TyAny.
Proof. exact I. Qed.
Lemma Forall_any {A} (f : A -> value) l : Forall (fun x => vtyped (f x) TyAny) l.
Proof. apply Forall_forall. intros x _. apply vtyped_any. Qed.

Lemma vtyped_join_l v a b : vtyped v a -> vtyped v (join a b).
Proof. unfold join. destruct (ty_eqb a b); [auto|intros; exact I]. Qed.
Lemma vtyped_join_r v a b : vtyped v b -> vtyped v (join a b).
Proof. unfold join. destruct (ty_eqb a b) eqn:E; [apply ty_eqb_eq in E; now subst|intros; exact I]. Qed.

Lemma join_any_l b : join TyAny b = TyAny.
Proof. unfold join. now destruct (ty_eqb TyAny b). Qed.

Lemma vtyped_fold_join v r : forall a t, In t (a :: r) -> vtyped v t -> vtyped v (fold_left join r a).
Proof.
  induction r as [|x r IH]; intros a t Hin Hv; cbn [fold_left].
  - destruct Hin as [->|[]]. exact Hv.
  - destruct Hin as [->|[->|Hin]].
    + apply (IH _ (join t x)); [now left|now apply vtyped_join_l].
    + apply (IH _ (join a t)); [now left|now apply vtyped_join_r].
    + apply (IH _ t); [now right|exact Hv].
Qed.

(** Case analysis on everything a hypothesis [H : match x with ... end = r] inspects, keeping
    the branches in which [discriminate] does not refute [H]. *)
Ltac inv_match H :=
  repeat match type of H with
         | context [match ?x with _ => _ end] => destruct x eqn:?; try discriminate H
         end.

(** [oall P o]: [P] holds of [o] if [o] is a value. *)
Definition oall {A} (P : A -> Prop) (o : outcome A) : Prop := forall a, o = Ok a -> P a.
Definition otyped (o : outcome value) (t : ty) : Prop := oall (fun v => vtyped v t) o.

Lemma oall_ok {A} (P : A -> Prop) a : P a -> oall P (Ok a).
Proof. intros H b [= <-]. exact H. Qed.
Lemma oall_bind {A B} (P : B -> Prop) (o : outcome A) k :
  (forall x, o = Ok x -> oall P (k x)) -> oall P (let! x := o in k x).
Proof. destruct o; cbn [obind]; [auto|intros _ b; discriminate|intros _ b; discriminate]. Qed.
Lemma otyped_bool b : otyped (Ok (VBool b)) TyB.
Proof. apply oall_ok. cbn. eauto. Qed.
Lemma bool_tail r : otyped (let! y := r in let! q := as_bool y in Ok (VBool q)) TyB.
Proof. apply oall_bind. intros y _. apply oall_bind. intros q _. apply otyped_bool. Qed.

Lemma seq_o_typed os ts : Forall2 otyped os ts -> oall (fun vs => Forall2 vtyped vs ts) (seq_o os).
Proof.
  induction 1 as [|o t os ts Ho _ IH]; cbn [seq_o]; [apply oall_ok; constructor|].
  apply oall_bind. intros v Hv. apply oall_bind. intros vs Hvs. apply oall_ok.
  constructor; [exact (Ho v Hv)|exact (IH vs Hvs)].
Qed.

Definition bin_ty (o : binop) (ta tb : ty) : option ty :=
  match o with
  | BAdd | BSub | BMul | BDiv | BRem => arith_ty o ta tb
  | BEq | BNe | BLt | BLe | BGt | BGe | BIn => Some TyB
  | BIndex => Some TyAny
  | BOr | BAnd => None
  end.

Lemma arith_preserved o ta tb t x y : arith_ty o ta tb = Some t ->
  vtyped x ta -> vtyped y tb -> otyped (strict_binop o x y) t.
Proof.
  intros Ht Hx Hy v Hv. unfold arith_ty in Ht. inv_match Ht; injection Ht as <-; try exact I.
  - destruct Hx as [sx ->], Hy as [sy ->]. cbn in Hv. injection Hv as <-. cbn. eauto.
  - destruct Hx as (lx & -> & Fx), Hy as (ly & -> & Fy). cbn in Hv. injection Hv as <-.
    exists (lx ++ ly). split; [reflexivity|]. apply Forall_app. split.
    + eapply Forall_impl; [|exact Fx]. intros a. apply vtyped_join_l.
    + eapply Forall_impl; [|exact Fy]. intros a. apply vtyped_join_r.
Qed.

Lemma bin_preserved o ta tb t x y : bin_ty o ta tb = Some t ->
  vtyped x ta -> vtyped y tb -> otyped (strict_binop o x y) t.
Proof.
  intros Ht Hx Hy. destruct o; cbn [bin_ty] in Ht; try discriminate;
    try exact (arith_preserved _ ta tb t x y Ht Hx Hy); injection Ht as <-; cbn [strict_binop].
  1, 2: apply otyped_bool.
  1-4: unfold v_lt, v_le, v_gt, v_ge; destruct (v_cmp x y); [apply otyped_bool|intros v; discriminate].
  - intros v Hv. unfold v_in in Hv. inv_match Hv; injection Hv as <-; cbn; eauto.
  - intros v _. exact I.
Qed.

Lemma range_items_typed rv tr te items : vtyped rv tr -> elem_ty tr = Some te ->
  range_items rv = Some items -> Forall (fun it => vtyped it te) items.
Proof.
  destruct tr; cbn [elem_ty]; intros Hv [= <-] Hr.
  - destruct Hv as (l & -> & Hl). cbn in Hr. now injection Hr as <-.
  - destruct Hv as (m & -> & Hm). cbn in Hr. injection Hr as <-. rewrite Forall_map. exact Hm.
  - apply (Forall_any (fun x => x)).
Qed.

Lemma env_ok_cons G ρ x te it : env_ok G ρ -> vtyped it te -> env_ok ((x, te) :: G) ((x, it) :: ρ).
Proof.
  intros He Hv y t. unfold tlookup, elookup. cbn [str_assoc]. destruct (str_eqb y x).
  - intros [= <-] v [= <-]. exact Hv.
  - intros Ht v Hl. exact (He y t Ht v Hl).
Qed.

Lemma sem_all_bool body items : otyped (sem_all body items) TyB.
Proof.
  induction items as [|it rest IH]; cbn [sem_all]; [apply otyped_bool|].
  apply oall_bind. intros v _. apply oall_bind. intros [] _; [exact IH|apply otyped_bool].
Qed.
Lemma sem_exists_bool body items : otyped (sem_exists body items) TyB.
Proof.
  induction items as [|it rest IH]; cbn [sem_exists]; [apply otyped_bool|].
  apply oall_bind. intros v _. apply oall_bind. intros [] _; [apply otyped_bool|exact IH].
Qed.

Lemma sem_map_typed flt body items te : Forall (fun it => otyped (body it) te) items ->
  otyped (let! ys := sem_map flt body items in Ok (VList ys)) (TyL te).
Proof.
  intros H. apply oall_bind. intros ys Hys. apply oall_ok. exists ys. split; [reflexivity|].
  revert ys Hys. change (oall (Forall (fun y => vtyped y te)) (sem_map flt body items)).
  induction H as [|it rest Hb _ IH]; cbn [sem_map]; [apply oall_ok; constructor|].
  apply oall_bind. intros [] _; [|exact IH].
  apply oall_bind. intros y Hy. apply oall_bind. intros ys Hys. apply oall_ok.
  constructor; [exact (Hb y Hy)|exact (IH ys Hys)].
Qed.

Lemma b_contains_bool v a r : b_contains v a = Ok r -> exists b, r = VBool b.
Proof. unfold b_contains, ferr. intros H. inv_match H; injection H as <-; eauto. Qed.
Lemma b_string_str v r : b_string v = Ok r -> exists s, r = VStr s.
Proof. unfold b_string, ferr. intros H. inv_match H; injection H as <-; eauto. Qed.

(** The result type [fn_ty] gives each standard function; what it asks of the arguments is
    the conclusion of [fn_ty_inv]. *)
Definition fn_res (f : sfn) : ty :=
  match f with
  | SSize | SInt => TyI
  | SContains | SStartsWith | SEndsWith => TyB
  | SString => TyS
  | SBytes => TyY
  | SDouble => TyD
  | SUint => TyU
  | SMax | SMin => TyAny
  end.

Lemma fn_ty_inv f ts t : fn_ty f ts = Some t ->
  t = fn_res f /\
  match f with
  | SMax | SMin => True
  | SContains => exists a b, ts = [a; b]
  | SStartsWith | SEndsWith => ts = [TyS; TyS]
  | SBytes => ts = [TyS]
  | _ => exists a, ts = [a]
  end.
Proof. intros H. destruct f; cbn [fn_ty] in H; inv_match H; injection H as <-; eauto. Qed.

Lemma fn_preserved f ts t vs : fn_ty f ts = Some t -> otyped (apply_fn f vs) t.
Proof.
  intros Ht. apply fn_ty_inv in Ht as [-> _]. intros r Hr.
  destruct f; try exact I; cbn [apply_fn] in Hr; inv_match Hr.
  - exact (b_contains_bool _ _ r Hr).
  - injection Hr as <-. cbn. eauto.
  - injection Hr as <-. cbn. eauto.
  - exact (b_string_str _ r Hr).
Qed.

Definition preserves (t : texpr) : Prop :=
  forall G τ ρ, type_of G t = Some τ -> env_ok G ρ -> otyped (sem ρ t) τ.

Lemma args_typed G ρ es : Forall preserves es -> env_ok G ρ -> forall ts,
  types_of G es = Some ts -> Forall2 otyped (map (sem ρ) es) ts.
Proof.
  induction 1 as [|e es He _ IH]; intros Hρ ts Hts; cbn [types_of map] in *.
  - injection Hts as <-. constructor.
  - inv_match Hts. injection Hts as <-. constructor; [now apply (He G)|now apply IH].
Qed.

Lemma sem_entries_map {T} (sm : T -> outcome value) es : forall m, otyped (entries_o sm es m) (TyM TyAny TyAny).
Proof.
  induction es as [|[ke ve] es IH]; intros m; cbn [entries_o].
  - apply oall_ok. exists m. split; [reflexivity|apply Forall_any].
  - apply oall_bind. intros kv _. destruct (key_of_value kv); [|intros v; discriminate].
    apply oall_bind. intros x _. apply IH.
Qed.

Lemma entries_ty_shape G es t : entries_ty G es = Some t -> t = TyM TyAny TyAny.
Proof.
  induction es as [|[ke ve] es IH]; cbn [entries_ty]; [now intros [= <-]|].
  destruct (type_of G ke); [|discriminate]. destruct (type_of G ve); [|discriminate]. exact IH.
Qed.

(** [x] ranges over [r], whose elements have type [te]. *)
Definition ranged (G : tenv) (x : str) (r : texpr) (te : ty) : Prop :=
  var_ok x = true /\ exists tr, type_of G r = Some tr /\ elem_ty tr = Some te.

(** What a typing tells about the parts of the term, constructor by constructor. *)
Lemma type_of_inv G t τ : type_of G t = Some τ ->
  match t with
  | TUn o a => (exists ta, type_of G a = Some ta) /\ forall v, otyped (v_unop o v) τ
  | TBin o a b => exists ta tb, type_of G a = Some ta /\ type_of G b = Some tb /\ bin_ty o ta tb = Some τ
  | TAnd a b | TOr a b => type_of G a = Some TyB /\ type_of G b = Some TyB /\ τ = TyB
  | TCond c a b =>
      type_of G c = Some TyB /\ exists ta tb, type_of G a = Some ta /\ type_of G b = Some tb /\ τ = join ta tb
  | TSelect a f => (exists ta, type_of G a = Some ta) /\ has_function default_ctx f = false /\ τ = TyAny
  | THas a f => (exists ta, type_of G a = Some ta) /\ τ = TyB
  | TCall f recv args =>
      exists ts, types_of G args = Some ts /\ fn_ty f ts = Some τ /\ (recv = true -> recv_ok f = true)
  | TAll x r b | TExists x r b | TExistsOne x r b =>
      τ = TyB /\ exists te, ranged G x r te /\ type_of ((x, te) :: G) b = Some TyB
  | TFilter x r b => exists te, ranged G x r te /\ type_of ((x, te) :: G) b = Some TyB /\ τ = TyL te
  | TMapM x r flt b =>
      exists te tb, ranged G x r te /\ (forall p, flt = Some p -> type_of ((x, te) :: G) p = Some TyB) /\
                    type_of ((x, te) :: G) b = Some tb /\ τ = TyL tb
  | _ => True
  end.
Proof.
  intros H. destruct t; try exact I; rewrite ?type_tcall in H; cbn [type_of] in H; unfold ranged.
  - inv_match H; injection H as <-; (split; [eauto|]); intros v r Hr; try exact I.
    cbn in Hr. injection Hr as <-. cbn. eauto.
  - destruct (type_of G t1) as [ta|]; [|discriminate]. destruct (type_of G t2) as [tb|]; [|discriminate]. eauto.
  - inv_match H; injection H as <-; auto.
  - inv_match H; injection H as <-; auto.
  - inv_match H. injection H as <-. eauto 6.
  - inv_match H; injection H as <-; eauto.
  - inv_match H; injection H as <-; eauto.
  - destruct (types_of G args) as [ts|]; [|discriminate]. exists ts.
    destruct recv; [|now split]. destruct (recv_ok f); [|discriminate]. destruct ts; [discriminate|now split].
  - inv_match H; injection H as <-; eauto 8.
  - inv_match H; injection H as <-; eauto 8.
  - inv_match H; injection H as <-; eauto 8.
  - inv_match H. injection H as <-. do 2 eexists. split; [eauto|split; [|eauto]].
    intros p ->. match goal with E : _ = true |- _ => inv_match E end. reflexivity.
  - inv_match H. injection H as <-. eauto 8.
Qed.

Lemma range_typed G ρ x r te S t : preserves r -> ranged G x r te -> env_ok G ρ ->
  (forall items, Forall (fun it => vtyped it te) items -> otyped (S items) t) ->
  otyped (let! rv := sem ρ r in match range_items rv with None => Err EInvalid | Some items => S items end) t.
Proof.
  intros Hr (_ & tr & Er & Ee) Hρ HS. apply oall_bind. intros rv Hrv.
  destruct (range_items rv) as [items|] eqn:Eit; [|intros v; discriminate].
  apply HS. exact (range_items_typed rv tr te items (Hr G tr ρ Er Hρ rv Hrv) Ee Eit).
Qed.

Theorem sem_preserves t : preserves t.
Proof.
  induction t using texpr_ind'; intros G τ ρ Ht Hρ.
  - (* literal *) apply oall_ok. destruct v; try discriminate; injection Ht as <-; cbn; eauto.
  - (* variable *) cbn in Ht. destruct (var_ok x); [|discriminate]. exact (Hρ x τ Ht).
  - (* unary *) apply type_of_inv in Ht as [_ Hu]. cbn [sem]. apply oall_bind. intros v _. apply Hu.
  - (* strict binary *) apply type_of_inv in Ht as (ta & tb & Ea & Eb & Ht). cbn [sem].
    apply oall_bind. intros x Hx. apply oall_bind. intros y Hy.
    exact (bin_preserved o ta tb τ x y Ht (IHt1 G ta ρ Ea Hρ x Hx) (IHt2 G tb ρ Eb Hρ y Hy)).
  - (* && *) apply type_of_inv in Ht as (_ & _ & ->). cbn [sem].
    apply oall_bind. intros x _. apply oall_bind. intros [] _; [apply bool_tail|apply otyped_bool].
  - (* || *) apply type_of_inv in Ht as (_ & _ & ->). cbn [sem].
    apply oall_bind. intros x _. apply oall_bind. intros [] _; [apply otyped_bool|apply bool_tail].
  - (* ?: *) apply type_of_inv in Ht as (_ & ta & tb & Ea & Eb & ->). cbn [sem].
    apply oall_bind. intros x _. apply oall_bind. intros [] _ v Hv.
    + apply vtyped_join_l. exact (IHt2 G ta ρ Ea Hρ v Hv).
    + apply vtyped_join_r. exact (IHt3 G tb ρ Eb Hρ v Hv).
  - (* list *) rewrite type_tlist in Ht. rewrite sem_tlist.
    destruct (types_of G es) as [ts|] eqn:Ets; [|discriminate].
    apply oall_bind. intros vs Hvs. apply oall_ok.
    pose proof (seq_o_typed _ _ (args_typed G ρ es H Hρ ts Ets) vs Hvs) as F2.
    destruct ts as [|a r]; injection Ht as <-; exists vs; (split; [reflexivity|]).
    + apply (Forall_any (fun x => x)).
    + apply (Forall2_weaken _ _ _ _ F2). intros v t. apply vtyped_fold_join.
  - (* map literal *) rewrite type_tmap in Ht. rewrite sem_tmap.
    apply entries_ty_shape in Ht as ->. apply sem_entries_map.
  - (* select *) apply type_of_inv in Ht as (_ & _ & ->). intros v _. exact I.
  - (* has *) apply type_of_inv in Ht as (_ & ->). cbn [sem]. apply oall_bind. intros v _. apply otyped_bool.
  - (* call *) apply type_of_inv in Ht as (ts & _ & Ht & _). rewrite sem_tcall.
    apply oall_bind. intros vs _. exact (fn_preserved f ts τ vs Ht).
  - (* all *) apply type_of_inv in Ht as (-> & te & Hr & _). cbn [sem].
    apply (range_typed G ρ x t1 te _ _ IHt1 Hr Hρ). intros items _. apply sem_all_bool.
  - (* exists *) apply type_of_inv in Ht as (-> & te & Hr & _). cbn [sem].
    apply (range_typed G ρ x t1 te _ _ IHt1 Hr Hρ). intros items _. apply sem_exists_bool.
  - (* exists_one *) apply type_of_inv in Ht as (-> & te & Hr & _). cbn [sem].
    apply (range_typed G ρ x t1 te _ _ IHt1 Hr Hρ). intros items _.
    apply oall_bind. intros n _. apply otyped_bool.
  - (* map *) apply type_of_inv in Ht as (te & tb & Hr & _ & Eb & ->). cbn [sem].
    apply (range_typed G ρ x t1 te _ _ IHt1 Hr Hρ). intros items Fit.
    apply sem_map_typed. apply (Forall_impl _ (P := fun it => vtyped it te)); [|exact Fit].
    intros it Hit. apply (IHt2 _ tb _ Eb). now apply env_ok_cons.
  - (* filter *) apply type_of_inv in Ht as (te & Hr & _ & ->). cbn [sem].
    apply (range_typed G ρ x t1 te _ _ IHt1 Hr Hρ). intros items Fit.
    apply sem_map_typed. apply (Forall_impl _ (P := fun it => vtyped it te)); [|exact Fit].
    intros it Hit. now apply oall_ok.
Qed.

Definition rel (c : ctx) (ρ : env) : Prop := forall x, var_ok x = true -> lookup c x = elookup ρ x.
Definition std (c : ctx) : Prop := funs c = default_funs.

Lemma unop_name_ok o : unop_of_name (unop_name o) = Some o.
Proof. destruct o; reflexivity. Qed.
Lemma binop_name_ok o : binop_of_name (binop_name o) = Some o.
Proof. destruct o; reflexivity. Qed.

(** Branching on an outcome known to be a boolean. *)
Lemma rbind_bool r (k : value -> result) K : otyped r TyB -> (forall b, k (VBool b) = ret (K b)) ->
  rbind (ret r) k = ret (let! x := r in let! p := as_bool x in K p).
Proof.
  intros B Hk. rewrite rbind_ret. destruct r as [v| |]; try reflexivity.
  destruct (B v eq_refl) as [b ->]. apply Hk.
Qed.

Lemma as_bool_id r : otyped r TyB -> (let! y := r in let! q := as_bool y in Ok (VBool q)) = r.
Proof. intros B. destruct r as [v| |]; try reflexivity. now destruct (B v eq_refl) as [b ->]. Qed.

Lemma eval_tand c e1 e2 r1 r2 : eval c e1 = ret r1 -> eval c e2 = ret r2 -> otyped r1 TyB -> otyped r2 TyB ->
  eval c (call $"_&&_" [e1; e2]) =
  ret (let! x := r1 in let! p := as_bool x in
       if p then (let! y := r2 in let! q := as_bool y in Ok (VBool q)) else Ok (VBool false)).
Proof.
  intros E1 E2 B1 B2. change (call $"_&&_" [e1; e2]) with (e_and e1 e2). rewrite eval_and, E1, E2.
  apply (rbind_bool _ _ _ B1). intros [|]; [|reflexivity]. now apply rbind_bool.
Qed.

Lemma eval_tor c e1 e2 r1 r2 : eval c e1 = ret r1 -> eval c e2 = ret r2 -> otyped r1 TyB -> otyped r2 TyB ->
  eval c (call $"_||_" [e1; e2]) =
  ret (let! x := r1 in let! p := as_bool x in
       if p then Ok (VBool true) else (let! y := r2 in let! q := as_bool y in Ok (VBool q))).
Proof.
  intros E1 E2 B1 B2. change (call $"_||_" [e1; e2]) with (e_or e1 e2). rewrite eval_or, E1, E2.
  apply (rbind_bool _ _ _ B1). intros [|]; [reflexivity|]. cbn [to_bool]. now rewrite (as_bool_id r2 B2).
Qed.

Lemma eval_tcond c e0 e1 e2 r0 r1 r2 : eval c e0 = ret r0 -> eval c e1 = ret r1 -> eval c e2 = ret r2 ->
  otyped r0 TyB ->
  eval c (call op_conditional [e0; e1; e2]) =
  ret (let! x := r0 in let! p := as_bool x in if p then r1 else r2).
Proof.
  intros E0 E1 E2 B0. change (call op_conditional [e0; e1; e2]) with (e_cond e0 e1 e2).
  rewrite eval_cond, E0, E1, E2. apply (rbind_bool _ _ _ B0). now intros [|].
Qed.

Lemma list_go_seq ev l : forall os, map ev l = map ret os -> forall acc,
  list_go ev l acc [] = ret (let! vs := seq_o os in Ok (VList (rev acc ++ vs))).
Proof.
  induction l as [|e l IH]; intros [|o os] He acc; try discriminate; cbn [seq_o].
  - cbn [list_go obind]. now rewrite rev'_rev, app_nil_r.
  - injection He as He0 He. rewrite list_go_cons, He0, rbind_ret. destruct o as [v| |]; cbn [obind]; try reflexivity.
    rewrite (IH os He). cbn [rev]. destruct (seq_o os); cbn [obind]; try reflexivity.
    now rewrite <- app_assoc.
Qed.

Lemma list_go_pure ev (f : expr -> outcome value) l : Forall (fun e => ev e = ret (f e)) l -> forall acc,
  list_go ev l acc [] = ret (let! vs := seq_o (map f l) in Ok (VList (rev acc ++ vs))).
Proof. intros H. apply list_go_seq. rewrite map_map. now apply map_ext_Forall. Qed.

Lemma map_go_seq {T} (le : T * T -> expr * expr) (sm : T -> outcome value) ev l :
  Forall (fun kv => ev (fst (le kv)) = ret (sm (fst kv)) /\ ev (snd (le kv)) = ret (sm (snd kv))) l ->
  forall m, map_go ev (map le l) m [] = ret (entries_o sm l m).
Proof.
  induction 1 as [|[ke ve] l [Hk Hv] _ IH]; intros m; cbn [map entries_o]; [reflexivity|].
  cbn [fst snd] in Hk, Hv. destruct (le (ke, ve)) as [ke' ve']. cbn [fst snd] in Hk, Hv.
  rewrite map_go_cons, Hk. apply rbind_pure. intros kv. destruct (key_of_value kv); [|reflexivity].
  rewrite Hv. apply rbind_pure. intros v. apply IH.
Qed.

Lemma map_go_pure ev (f : expr -> outcome value) l :
  Forall (fun kv => ev (fst kv) = ret (f (fst kv)) /\ ev (snd kv) = ret (f (snd kv))) l -> forall m,
  map_go ev l m [] =
  ret ((fix go (l : list (expr * expr)) (m : list (key * value)) : outcome value :=
          match l with
          | [] => Ok (VMap m)
          | (ke, ve) :: l' =>
              let! kv := f ke in
              match key_of_value kv with
              | None => Err EInvalid
              | Some k => let! v := f ve in go l' (assoc_set k v m)
              end
          end) l m).
Proof. intros H m. rewrite <- (map_id l) at 1. exact (map_go_seq (fun kv => kv) f ev l H m). Qed.

Lemma all_args_pure os : forall vs,
  all_args (map ret os) vs [] =
  match seq_o os with
  | Ok ws => inl (rev ws ++ vs, [])
  | Err e => inr (Err e, [])
  | Crash s => inr (Crash s, [])
  end.
Proof.
  induction os as [|o os IH]; intros vs; cbn [map all_args seq_o obind]; [reflexivity|].
  unfold ret at 1. destruct o as [v| |]; cbn [obind]; try reflexivity.
  cbn [app]. rewrite IH. destruct (seq_o os); cbn [obind]; try reflexivity.
  cbn [rev]. now rewrite <- app_assoc.
Qed.

Lemma std_get c f : std c -> get_function c f = str_assoc f default_funs.
Proof. unfold std, get_function. now intros ->. Qed.

Lemma plain_fn f : plain_name (fn_name f).
Proof. destruct f; repeat split; reflexivity. Qed.

(** What the registry of [Context::default()] holds under each standard function's name. *)
Definition fn_def (f : sfn) : fdef :=
  match f with
  | SSize => bi [XThis TyValue] FSize
  | SContains => bi [XThis TyValue; XArg TyValue] FContains
  | SStartsWith => bi [XThis TyStr; XArg TyStr] FStartsWith
  | SEndsWith => bi [XThis TyStr; XArg TyStr] FEndsWith
  | SString => bi [XThis TyValue] FString
  | SBytes => bi [XArg TyStr] FBytes
  | SDouble => bi [XThis TyValue] FDouble
  | SInt => bi [XThis TyValue] FInt
  | SUint => bi [XThis TyValue] FUint
  | SMax => bi [XArgs] FMax
  | SMin => bi [XArgs] FMin
  end.

Lemma std_def c f : std c -> get_function c (fn_name f) = Some (fn_def f).
Proof. intros Hs. rewrite (std_get c _ Hs). destruct f; reflexivity. Qed.

Lemma eval_std_call c f tgt es : std c ->
  eval c (ECall (fn_name f) tgt es) =
  match option_map (eval c) tgt with
  | None => call_fn (fn_name f) (fn_def f) None (map (eval c) es) es []
  | Some (Ok v, lt) => call_fn (fn_name f) (fn_def f) (Some v) (map (eval c) es) es lt
  | Some (Err x, lt) => (Err x, lt)
  | Some (Crash s, lt) => (Crash s, lt)
  end.
Proof.
  intros Hs. rewrite eval_call, (dispatch_general _ _ _ _ _ (plain_fn f)). unfold call_general.
  now rewrite (std_def c f Hs).
Qed.

Lemma call_args c f b es os : std c -> fn_def f = bi [XArgs] b ->
  (forall vs, run_builtin b [VList vs] = apply_fn f vs) -> map (eval c) es = map ret os ->
  eval c (ECall (fn_name f) None es) = ret (let! vs := seq_o os in apply_fn f vs).
Proof.
  intros Hs Hd Hb He. rewrite (eval_std_call c f None es Hs), Hd, He. unfold call_fn.
  cbn [option_map params body bi]. rewrite extract_xargs, all_args_pure.
  destruct (seq_o os) as [ws| |]; cbn [obind]; try reflexivity.
  cbn [extract]. rewrite !rev'_rev. cbn [rev app]. now rewrite app_nil_r, rev_involutive, Hb.
Qed.

(** A call in either style, of well-typed arity and with effect-free arguments, applies the
    function to the argument values.  The string typing of the receiver of startsWith / endsWith
    is needed: on another value the extractor fails before the second argument's own error shows. *)
Lemma call_std c f (recv : bool) es os ts t : std c -> map (eval c) es = map ret os ->
  fn_ty f ts = Some t -> Forall2 otyped os ts -> (recv = true -> recv_ok f = true) ->
  eval c (match (if recv then es else []) with
          | e0 :: rest => ECall (fn_name f) (Some e0) rest
          | [] => ECall (fn_name f) None es
          end) = ret (let! vs := seq_o os in apply_fn f vs).
Proof.
  intros Hs He Ht F2 Hr. apply fn_ty_inv in Ht as [_ Ht].
  (* max, min: any number of arguments, function style only *)
  destruct f; try (destruct recv; [discriminate (Hr eq_refl)|];
                   eapply call_args; [exact Hs|reflexivity|reflexivity|exact He]; fail).
  (* the others: one or two arguments with outcomes [o0] (and [o1]); both sides then compute *)
  all: try destruct Ht as (a & Ht); try destruct Ht as (b & Ht); subst ts.
  all: try (apply Forall2_one in F2 as (o0 & -> & T0));
       try (apply Forall2_two in F2 as (o0 & o1 & -> & T0 & T1)).
  all: destruct es as [|e0 rest]; [discriminate|]; injection He as He0 He.
  all: destruct recv; try discriminate (Hr eq_refl); rewrite (eval_std_call c _ _ _ Hs);
       cbn [option_map map]; rewrite ?He0, ?He.
  all: destruct o0 as [v0| |]; try reflexivity.
  1, 2: destruct o1; reflexivity.
  all: destruct (T0 v0 eq_refl) as [s ->]; try reflexivity.
  all: destruct o1 as [v1| |]; try reflexivity; destruct v1; reflexivity.
Qed.

Lemma var_ok_accu x : var_ok x = true -> str_eqb x accu = false.
Proof.
  intros H. destruct (str_eqb x accu) eqn:E; [|reflexivity].
  apply str_eqb_eq in E. subst x. discriminate.
Qed.

(** The simulation between a typing context, an operational context and an environment, and
    its step into a macro body. *)
Definition sim (G : tenv) (c : ctx) (ρ : env) : Prop := env_ok G ρ /\ rel c ρ /\ std c.

Lemma sim_bind G c ρ x acc it te : sim G c ρ -> vtyped it te ->
  sim ((x, te) :: G) (bind c acc x it) ((x, it) :: ρ).
Proof.
  intros (Hρ & Hr & Hs) Hit. split; [now apply env_ok_cons|split; [|exact Hs]].
  intros y Hy. rewrite lookup_bind, (var_ok_accu y Hy). unfold elookup. cbn [str_assoc].
  destruct (str_eqb y x); [reflexivity|apply (Hr y Hy)].
Qed.

(** [ev], whatever the accumulator, yields on [it] the pure boolean outcome [B it]. *)
Definition bpure (ev : value -> value -> result) (B : value -> outcome value) (it : value) : Prop :=
  (forall acc, ev acc it = ret (B it)) /\ otyped (B it) TyB.

Lemma all_refine ev B a items : Forall (bpure ev B) items ->
  all_spec (ev a) items = ret (sem_all B items).
Proof.
  induction 1 as [|it rest [He Hb] _ IH]; cbn [all_spec sem_all]; [reflexivity|].
  rewrite He. unfold ret at 1. destruct (B it) as [v| |]; cbn [obind]; try reflexivity.
  destruct (Hb v eq_refl) as [b ->]. cbn [to_bool as_bool obind]. destruct b; [|reflexivity].
  now rewrite IH.
Qed.

Lemma exists_refine ev B items : Forall (bpure ev B) items ->
  exists_spec ev items (VBool false) = ret (sem_exists B items).
Proof.
  induction 1 as [|it rest [He Hb] _ IH]; cbn [exists_spec sem_exists]; [reflexivity|].
  rewrite He. unfold ret at 1. destruct (B it) as [v| |]; cbn [obind]; try reflexivity.
  destruct (Hb v eq_refl) as [b ->]. cbn [to_bool as_bool obind]. destruct b; [reflexivity|].
  now rewrite IH.
Qed.

Lemma one_refine c x p B items : str_eqb x accu = false ->
  Forall (bpure (fun acc it => eval (bind c acc x it) p) B) items -> forall n,
  gfold (fun _ => true) (fun acc it => eval (bind c acc x it) (one_step p)) one_res items (VInt n) [] =
  ret (let! k := sem_count B items n in Ok (VBool (k =? 1)%Z)).
Proof.
  intros Hx. induction 1 as [|it rest [He Hb] _ IH]; intros n; cbn [gfold sem_count obind]; [reflexivity|].
  unfold one_step at 1. rewrite eval_cond, He, rbind_ret.
  destruct (B it) as [v| |]; cbn [obind]; try reflexivity.
  destruct (Hb v eq_refl) as [b ->]. cbn [to_bool as_bool obind]. destruct b.
  - rewrite (eval_plus_one _ n) by now apply lookup_bind_accu.
    unfold chk_i64. destruct (in_i64 (n + 1)); [|reflexivity]. cbn [app]. apply IH.
  - rewrite (eval_accu _ (VInt n)) by now apply lookup_bind_accu. cbn [app]. apply IH.
Qed.

Lemma map_refine (fltE : option (value -> value -> result)) (bodyE : value -> value -> result)
      (fltB : option (value -> outcome value)) (B : value -> outcome value) items :
  Forall (fun it => match fltE, fltB with
                    | Some fe, Some fb => bpure fe fb it
                    | None, None => True
                    | _, _ => False
                    end /\ forall acc, bodyE acc it = ret (B it)) items ->
  forall acc, map_spec fltE bodyE items acc = ret (let! ys := sem_map fltB B items in Ok (VList (acc ++ ys))).
Proof.
  induction 1 as [|it rest [Hf Hb] _ IH]; intros acc; cbn [map_spec sem_map obind].
  - now rewrite app_nil_r.
  - assert (Body : match bodyE (VList acc) it with
                   | (Ok v, l) => let '(r, l') := map_spec fltE bodyE rest (acc ++ [v]) in (r, [] ++ l ++ l')
                   | (Err e, l) => (Err e, [] ++ l)
                   | (Crash s, l) => (Crash s, [] ++ l)
                   end = ret (let! y := B it in let! ys := sem_map fltB B rest in Ok (VList (acc ++ y :: ys)))).
    { rewrite Hb. unfold ret at 1. destruct (B it) as [y| |]; cbn [obind]; try reflexivity.
      rewrite IH. unfold ret. cbn [app].
      destruct (sem_map fltB B rest); cbn [obind]; try reflexivity. now rewrite <- app_assoc. }
    destruct fltE as [fe|], fltB as [fb|]; try contradiction.
    + destruct Hf as [Hf Hfb]. rewrite Hf. unfold ret at 1.
      destruct (fb it) as [fv| |]; cbn [obind]; try reflexivity.
      destruct (Hfb fv eq_refl) as [b ->]. cbn [to_bool as_bool obind]. destruct b.
      * rewrite Body. destruct (B it); cbn [obind]; try reflexivity.
        destruct (sem_map (Some fb) B rest); reflexivity.
      * rewrite IH. reflexivity.
    + cbn [obind]. rewrite Body. destruct (B it); cbn [obind]; try reflexivity.
      destruct (sem_map None B rest); reflexivity.
Qed.

Lemma lower_many es :
  (fix go (l : list texpr) : list expr := match l with [] => [] | e :: l' => lower e :: go l' end) es = map lower es.
Proof. induction es as [|e es IH]; [reflexivity|]. cbn [map]. now rewrite <- IH. Qed.

Lemma lower_tlist es : lower (TList es) = EList (map lower es).
Proof. cbn [lower]. now rewrite lower_many. Qed.

Definition lower_entry (kv : texpr * texpr) : expr * expr := (lower (fst kv), lower (snd kv)).
Lemma lower_tmap es : lower (TMap es) = EMap (map lower_entry es).
Proof.
  cbn [lower]. f_equal. induction es as [|[k v] es IH]; [reflexivity|]. cbn [map lower_entry fst snd]. now rewrite <- IH.
Qed.

Lemma lower_tcall f recv args :
  lower (TCall f recv args) =
  match (if recv then map lower args else []) with
  | e0 :: rest => ECall (fn_name f) (Some e0) rest
  | [] => ECall (fn_name f) None (map lower args)
  end.
Proof. cbn [lower]. destruct recv; [destruct args; [reflexivity|]|]; cbn [map]; now rewrite lower_many. Qed.

Definition pure_at (c : ctx) (ρ : env) (t : texpr) : Prop := eval c (lower t) = ret (sem ρ t).

Lemma map_pure c ρ es : Forall (pure_at c ρ) es -> map (eval c) (map lower es) = map ret (map (sem ρ) es).
Proof. induction 1 as [|e l He _ IH]; [reflexivity|]. cbn [map]. now rewrite He, IH. Qed.

Definition refines (t : texpr) : Prop :=
  forall G τ c ρ, type_of G t = Some τ -> sim G c ρ -> pure_at c ρ t.

Lemma refines_args G c ρ es : Forall refines es -> sim G c ρ -> forall ts,
  types_of G es = Some ts -> Forall (pure_at c ρ) es.
Proof.
  induction 1 as [|e es He _ IH]; intros Hs ts Hts; constructor; cbn [types_of] in Hts; inv_match Hts.
  - eapply He; eassumption.
  - exact (IH Hs _ eq_refl).
Qed.

Lemma body_bpure G c ρ x te body : refines body -> type_of ((x, te) :: G) body = Some TyB -> sim G c ρ ->
  forall it, vtyped it te ->
  bpure (fun acc it => eval (bind c acc x it) (lower body)) (fun it => sem ((x, it) :: ρ) body) it.
Proof.
  intros Hb Ht Hs it Hit. split.
  - intros acc. exact (Hb _ _ _ _ Ht (sim_bind G c ρ x acc it te Hs Hit)).
  - apply (sem_preserves body _ _ _ Ht). apply env_ok_cons; [apply Hs|exact Hit].
Qed.

(** A macro evaluates its range, and then runs a fold [K] which the typing of the items lets
    one identify with the fold [S] of the reference semantics. *)
Lemma range_refine G c ρ x r te K S : refines r -> ranged G x r te -> sim G c ρ ->
  (forall items, Forall (fun it => vtyped it te) items -> K items = ret (S items)) ->
  rbind (eval c (lower r)) (fun vr => match range_items vr with None => ret (Err EInvalid) | Some items => K items end) =
  ret (let! rv := sem ρ r in match range_items rv with None => Err EInvalid | Some items => S items end).
Proof.
  intros Hr (_ & tr & Er & Ee) Hs HK. rewrite (Hr G tr c ρ Er Hs), rbind_ret.
  destruct (sem ρ r) as [rv| |] eqn:Erv; cbn [obind]; try reflexivity.
  destruct (range_items rv) as [items|] eqn:Eit; [|reflexivity].
  apply HK. exact (range_items_typed rv tr te items (sem_preserves r G tr ρ Er (proj1 Hs) rv Erv) Ee Eit).
Qed.

Theorem eval_refines t : refines t.
Proof.
  induction t using texpr_ind'; unfold refines, pure_at in *; intros G τ c ρ Ht Hs;
    pose proof Hs as (Hρ & Hr & Hstd).
  - reflexivity.
  - cbn [lower sem]. rewrite eval_ident. cbn [type_of] in Ht. destruct (var_ok x) eqn:Ex; [|discriminate].
    now rewrite (Hr x Ex).
  - apply type_of_inv in Ht as [[ta Ea] _]. cbn [lower sem]. unfold call.
    rewrite (eval_unop c _ o _ (unop_name_ok o)), (IHt G ta c ρ Ea Hs). now apply rbind_pure.
  - apply type_of_inv in Ht as (ta & tb & Ea & Eb & Ht). cbn [lower sem]. unfold call.
    rewrite (eval_strict c _ o _ _ (binop_name_ok o)), (IHt1 G ta c ρ Ea Hs) by (intros ->; discriminate).
    apply rbind_pure. intros x. rewrite (IHt2 G tb c ρ Eb Hs). now apply rbind_pure.
  - apply type_of_inv in Ht as (Ea & Eb & _). cbn [lower sem].
    apply eval_tand; eauto; now apply (sem_preserves _ G).
  - apply type_of_inv in Ht as (Ea & Eb & _). cbn [lower sem].
    apply eval_tor; eauto; now apply (sem_preserves _ G).
  - apply type_of_inv in Ht as (E0 & ta & tb & Ea & Eb & _). cbn [lower sem].
    apply eval_tcond; eauto. now apply (sem_preserves _ G).
  - (* list *) rewrite lower_tlist, eval_list, sem_tlist. rewrite type_tlist in Ht.
    destruct (types_of G es) as [ts|] eqn:Ets; [|discriminate].
    now rewrite (list_go_seq _ _ _ (map_pure c ρ es (refines_args G c ρ es H Hs ts Ets)) []).
  - (* map *) rewrite lower_tmap, eval_map, sem_tmap. rewrite type_tmap in Ht.
    apply map_go_seq. revert Ht. induction H as [|[ke ve] es [Hk Hv] _ IH]; cbn [entries_ty]; [constructor|].
    intros Ht. inv_match Ht. constructor; [split; eauto|exact (IH Ht)].
  - (* select *) apply type_of_inv in Ht as ([ta Ea] & Hf & _). cbn [lower sem].
    rewrite eval_select, (IHt G ta c ρ Ea Hs). apply rbind_pure. intros v.
    unfold member. replace (has_function c f) with false; [now destruct v|].
    unfold has_function. rewrite (std_get _ _ Hstd). symmetry. exact Hf.
  - (* has *) apply type_of_inv in Ht as ([ta Ea] & _). cbn [lower sem].
    rewrite eval_select, (IHt G ta c ρ Ea Hs). now apply rbind_pure.
  - (* call *) apply type_of_inv in Ht as (ts & Ets & Ht & Hrecv). rewrite lower_tcall, sem_tcall.
    apply (call_std c f recv _ _ ts τ Hstd); [|exact Ht| |exact Hrecv].
    + apply map_pure. exact (refines_args G c ρ args H Hs ts Ets).
    + apply (args_typed G ρ args); [|exact Hρ|exact Ets]. apply Forall_forall. intros a _. apply sem_preserves.
  - (* all *) apply type_of_inv in Ht as (_ & te & Hx & Eb). cbn [lower sem].
    rewrite (all_correct _ _ _ _ (var_ok_accu x (proj1 Hx))). apply (range_refine G c ρ x t1 te _ _ IHt1 Hx Hs).
    intros items Fit. apply (all_refine (fun acc it => eval (bind c acc x it) (lower t2))).
    apply (Forall_impl _ (body_bpure G c ρ x te t2 IHt2 Eb Hs) Fit).
  - (* exists *) apply type_of_inv in Ht as (_ & te & Hx & Eb). cbn [lower sem].
    rewrite (exists_correct _ _ _ _ (var_ok_accu x (proj1 Hx))). apply (range_refine G c ρ x t1 te _ _ IHt1 Hx Hs).
    intros items Fit. apply exists_refine. apply (Forall_impl _ (body_bpure G c ρ x te t2 IHt2 Eb Hs) Fit).
  - (* exists_one *) apply type_of_inv in Ht as (_ & te & Hx & Eb). cbn [lower sem].
    rewrite exists_one_gfold. apply (range_refine G c ρ x t1 te _ _ IHt1 Hx Hs).
    intros items Fit. apply (one_refine c x (lower t2) _ items (var_ok_accu x (proj1 Hx))).
    apply (Forall_impl _ (body_bpure G c ρ x te t2 IHt2 Eb Hs) Fit).
  - (* map *) apply type_of_inv in Ht as (te & tb & Hx & Ef & Eb & _). cbn [lower sem].
    rewrite (map_correct _ _ _ _ _ (var_ok_accu x (proj1 Hx))). apply (range_refine G c ρ x t1 te _ _ IHt1 Hx Hs).
    intros items Fit.
    rewrite (map_refine _ _ (match flt with Some p => Some (fun it => sem ((x, it) :: ρ) p) | None => None end)
                        (fun it => sem ((x, it) :: ρ) t2) items); [reflexivity|].
    apply (Forall_impl _ (P := fun it => vtyped it te)); [|exact Fit]. intros it Hit. split.
    + destruct flt as [p|]; cbn [option_map]; [|exact I].
      exact (body_bpure G c ρ x te p H (Ef p eq_refl) Hs it Hit).
    + intros acc. exact (IHt2 _ tb _ _ Eb (sim_bind G c ρ x acc it te Hs Hit)).
  - (* filter *) apply type_of_inv in Ht as (te & Hx & Eb & _). cbn [lower sem].
    rewrite (filter_correct _ _ _ _ (var_ok_accu x (proj1 Hx))). apply (range_refine G c ρ x t1 te _ _ IHt1 Hx Hs).
    intros items Fit.
    rewrite (map_refine _ _ (Some (fun it => sem ((x, it) :: ρ) t2)) (fun it => Ok it) items); [reflexivity|].
    apply (Forall_impl _ (P := fun it => vtyped it te)); [|exact Fit]. intros it Hit.
    split; [exact (body_bpure G c ρ x te t2 IHt2 Eb Hs it Hit)|reflexivity].
Qed.

Lemma lookup_env_of c x : lookup c x = elookup (env_of c) x.
Proof. unfold lookup, elookup, env_of. now rewrite lookup_scopes_concat. Qed.

Lemma rel_env_of c : rel c (env_of c).
Proof. intros x _. apply lookup_env_of. Qed.

Theorem lower_no_unspec t : no_unspec (lower t).
Proof.
  (* where [lower] puts the lowered children into a fixed frame the induction hypotheses suffice;
     lists, map entries, call arguments and the parts of [TMapM] are left *)
  induction t using texpr_ind'; try (cbn; repeat split; auto; fail).
  - rewrite lower_tlist. cbn [no_unspec]. now rewrite all_go, Forall_map.
  - rewrite lower_tmap. cbn [no_unspec]. now rewrite all_go2, Forall_map.
  - rewrite lower_tcall. destruct recv; [destruct H as [|a0 rest Ha Hrest]|]; cbn [map no_unspec].
    + auto.
    + split; [exact Ha|now rewrite all_go, Forall_map].
    + split; [exact I|now rewrite all_go, Forall_map].
  - destruct flt as [p|]; cbn; repeat split; auto.
Qed.

Theorem sem_nocrash G t τ ρ : type_of G t = Some τ -> env_ok G ρ -> nocrash (sem ρ t).
Proof.
  intros Ht Hρ. set (c := {| funs := default_funs; scopes := [ρ] |}).
  assert (Hr : rel c ρ).
  { intros x _. rewrite (lookup_env_of c x). unfold env_of, c. cbn [scopes concat]. now rewrite app_nil_r. }
  change (sem ρ t) with (fst (ret (sem ρ t))). rewrite <- (eval_refines t G τ c ρ Ht (conj Hρ (conj Hr eq_refl))).
  apply eval_nocrash; [exact default_ctx_wf|apply lower_no_unspec].
Qed.
