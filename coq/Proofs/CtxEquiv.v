(** Contexts with the same registry that answer every lookup alike are interchangeable. *)
From Cel.Model Require Import Eval.
From Cel.Proofs Require Import FrameProofs.

Definition ctx_equiv (c1 c2 : ctx) : Prop :=
  funs c1 = funs c2 /\ forall x, lookup c1 x = lookup c2 x.

Lemma ctx_equiv_refl c : ctx_equiv c c.
Proof. split; reflexivity. Qed.

Theorem eval_equiv e c1 c2 : ctx_equiv c1 c2 -> eval c1 e = eval c2 e.
Proof.
  intros [Hf Hl]. apply (eval_frame e (fun _ => True)); [now apply Forall_forall|]. split; auto.
Qed.
