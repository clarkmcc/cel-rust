(** The parser's fuel is always enough.  One induction on the fuel carries a statement per parser
    function: with fuel at least [rank + 16 * (tokens left)] it does not answer [PFuel], and on
    success the rest is shorter than (for the loops: not longer than) its input.  The ranks follow
    the call graph (expr 9 down to member 2; primary, field list and loops 1; argument, element and
    entry lists 10-11); [parse_fuel ts = 16 * (length ts + 2)] covers rank 9 at the full input.
    Why 16: a call passes on one unit of fuel less.  On the same input it goes to a function of
    smaller rank, which asks for at least one unit less; on an input at least one token shorter
    16 units are freed, more than the largest rank (11), so any function may be called.  Both
    comparisons are the [lia] inside [sub]. *)
From Cel.Model Require Import Parser.
From Cel.Proofs Require Import ParserUnfold.
From Coq Require Import Lia.
Open Scope nat_scope.

(** not out of fuel, and on success at least [d] tokens fewer than [n] are left *)
Definition nf {A} (d n : nat) (r : pres A) : Prop :=
  match r with POk _ rest => length rest + d <= n | PFail => True | PFuel => False end.

Lemma nf_mono {A} d m d' n (r : pres A) : nf d m r -> m + d' <= n + d -> nf d' n r.
Proof. destruct r; cbn [nf]; [lia|auto|auto]. Qed.

Lemma nf_map {A B} d n (a : pres A) (g : A -> B) : nf d n a -> nf d n (pbind a (fun x => POk (g x))).
Proof. destruct a; exact (fun H => H). Qed.

Lemma nf_bind {A B} d d' n (a : pres A) (k : A -> list tk -> pres B) :
  nf d n a -> (forall x l, length l + d <= n -> nf d' n (k x l)) -> nf d' n (pbind a k).
Proof. destruct a; cbn [nf pbind]; [auto|auto|contradiction]. Qed.

Record IHs (f : nat) : Prop := {
  Hexpr : forall ts, 9 + 16 * length ts <= f -> nf 1 (length ts) (p_expr f ts);
  Hor : forall ts, 8 + 16 * length ts <= f -> nf 1 (length ts) (p_or f ts);
  Hand : forall ts, 7 + 16 * length ts <= f -> nf 1 (length ts) (p_and f ts);
  Hrel : forall ts, 6 + 16 * length ts <= f -> nf 1 (length ts) (p_rel f ts);
  Hadd : forall ts, 5 + 16 * length ts <= f -> nf 1 (length ts) (p_add f ts);
  Hmul : forall ts, 4 + 16 * length ts <= f -> nf 1 (length ts) (p_mul f ts);
  Hunary : forall ts, 3 + 16 * length ts <= f -> nf 1 (length ts) (p_unary f ts);
  Hmember : forall ts, 2 + 16 * length ts <= f -> nf 1 (length ts) (p_member f ts);
  Hprimary : forall ts, 1 + 16 * length ts <= f -> nf 1 (length ts) (p_primary f ts);
  Horl : forall acc ts, 1 + 16 * length ts <= f -> nf 0 (length ts) (p_or_loop f acc ts);
  Handl : forall acc ts, 1 + 16 * length ts <= f -> nf 0 (length ts) (p_and_loop f acc ts);
  Hrell : forall l ts, 1 + 16 * length ts <= f -> nf 0 (length ts) (p_rel_loop f l ts);
  Haddl : forall l ts, 1 + 16 * length ts <= f -> nf 0 (length ts) (p_add_loop f l ts);
  Hmull : forall l ts, 1 + 16 * length ts <= f -> nf 0 (length ts) (p_mul_loop f l ts);
  Hpostfix : forall e ts, 1 + 16 * length ts <= f -> nf 0 (length ts) (p_postfix f e ts);
  Hargs : forall ts, 11 + 16 * length ts <= f -> nf 1 (length ts) (p_args f ts);
  Hargsr : forall acc ts, 10 + 16 * length ts <= f -> nf 1 (length ts) (p_args_rest f acc ts);
  Helems : forall acc ts, 10 + 16 * length ts <= f -> nf 1 (length ts) (p_elems f acc ts);
  Hentries : forall acc ts, 10 + 16 * length ts <= f -> nf 1 (length ts) (p_entries f acc ts);
  Hfields : forall acc ts, 1 + 16 * length ts <= f -> nf 1 (length ts) (p_fields f acc ts)
}.

(** [sub H]: the goal is the fact [H] about a sub-parse, up to the bounds; the fuel [H] asks
    for and the comparison of the bounds are arithmetic *)
Ltac sub H := eapply nf_mono; [apply H|]; cbn [length] in *; lia.

(** [immediate]: an immediate answer, [PFail] or [POk] with a rest that is in sight *)
Ltac immediate := cbn [nf length] in *; first [exact I | lia].

Lemma count_prefix_len P ts : length (snd (count_prefix P ts)) <= length ts.
Proof. destruct (count_prefix_spec P ts) as (pre & E & _). rewrite E at 2. rewrite app_length. lia. Qed.

Lemma msg_prefix_len fuel ts acc names r : msg_prefix fuel ts acc = Some (names, r) -> length r + 2 <= length ts.
Proof.
  intros H. apply msg_prefix_spec in H as (ids & -> & G). rewrite app_length. destruct G; cbn [length]; lia.
Qed.

Lemma literal_of_len ts e r : literal_of ts = Some (e, r) -> length r < length ts.
Proof.
  intros H. apply literal_of_spec in H as (pre & -> & G). rewrite app_length. destruct G; cbn [length]; lia.
Qed.

Section Step.
Variable f : nat.
Hypothesis IH : IHs f.

Lemma t_cond_tail c ts : 8 + 16 * length ts <= f -> nf 1 (length ts) (cond_tail f c ts).
Proof.
  intros Hf. apply (nf_bind 1); [sub (Hor f IH)|]. intros a l Hl.
  destruct l as [|[] l]; try immediate. apply nf_map. sub (Hexpr f IH).
Qed.

Lemma t_expr ts : 9 + 16 * length ts <= S f -> nf 1 (length ts) (p_expr (S f) ts).
Proof.
  intros Hf. rewrite u_expr. apply (nf_bind 1); [sub (Hor f IH)|]. intros c l Hl.
  destruct l as [|[] l]; try immediate. sub (t_cond_tail c l).
Qed.

Lemma t_or ts : 8 + 16 * length ts <= S f -> nf 1 (length ts) (p_or (S f) ts).
Proof. intros Hf. rewrite u_or. apply (nf_bind 1); [sub (Hand f IH)|]. intros t l Hl. sub (Horl f IH). Qed.
Lemma t_and ts : 7 + 16 * length ts <= S f -> nf 1 (length ts) (p_and (S f) ts).
Proof. intros Hf. rewrite u_and. apply (nf_bind 1); [sub (Hrel f IH)|]. intros t l Hl. sub (Handl f IH). Qed.
Lemma t_rel ts : 6 + 16 * length ts <= S f -> nf 1 (length ts) (p_rel (S f) ts).
Proof. intros Hf. rewrite u_rel. apply (nf_bind 1); [sub (Hadd f IH)|]. intros t l Hl. sub (Hrell f IH). Qed.
Lemma t_add ts : 5 + 16 * length ts <= S f -> nf 1 (length ts) (p_add (S f) ts).
Proof. intros Hf. rewrite u_add. apply (nf_bind 1); [sub (Hmul f IH)|]. intros t l Hl. sub (Haddl f IH). Qed.
Lemma t_mul ts : 4 + 16 * length ts <= S f -> nf 1 (length ts) (p_mul (S f) ts).
Proof. intros Hf. rewrite u_mul. apply (nf_bind 1); [sub (Hunary f IH)|]. intros t l Hl. sub (Hmull f IH). Qed.
Lemma t_member ts : 2 + 16 * length ts <= S f -> nf 1 (length ts) (p_member (S f) ts).
Proof. intros Hf. rewrite u_member. apply (nf_bind 1); [sub (Hprimary f IH)|]. intros t l Hl. sub (Hpostfix f IH). Qed.

Lemma t_or_loop acc ts : 1 + 16 * length ts <= S f -> nf 0 (length ts) (p_or_loop (S f) acc ts).
Proof.
  intros Hf. rewrite u_or_loop. destruct ts as [|[] ts]; try immediate.
  apply (nf_bind 1); [sub (Hand f IH)|]. intros t l Hl. sub (Horl f IH).
Qed.
Lemma t_and_loop acc ts : 1 + 16 * length ts <= S f -> nf 0 (length ts) (p_and_loop (S f) acc ts).
Proof.
  intros Hf. rewrite u_and_loop. destruct ts as [|[] ts]; try immediate.
  apply (nf_bind 1); [sub (Hrel f IH)|]. intros t l Hl. sub (Handl f IH).
Qed.

Lemma t_binloop opn operand loop lhs ts :
  (forall l, length l < length ts -> nf 1 (length l) (operand l)) ->
  (forall e l, length l < length ts -> nf 0 (length l) (loop e l)) ->
  nf 0 (length ts) (binloop opn operand loop lhs ts).
Proof.
  intros Ho Hl. unfold binloop. destruct ts as [|op ts]; [immediate|]. destruct (opn op) as [name|]; [|immediate].
  apply (nf_bind 1); [sub (Ho ts)|]. intros r l Hr. sub (Hl (ECall name None [lhs; r]) l).
Qed.

Lemma t_rel_loop lhs ts : 1 + 16 * length ts <= S f -> nf 0 (length ts) (p_rel_loop (S f) lhs ts).
Proof. intros Hf. rewrite u_rel_loop. apply t_binloop; intros; [sub (Hadd f IH)|sub (Hrell f IH)]. Qed.
Lemma t_add_loop lhs ts : 1 + 16 * length ts <= S f -> nf 0 (length ts) (p_add_loop (S f) lhs ts).
Proof. intros Hf. rewrite u_add_loop. apply t_binloop; intros; [sub (Hmul f IH)|sub (Haddl f IH)]. Qed.
Lemma t_mul_loop lhs ts : 1 + 16 * length ts <= S f -> nf 0 (length ts) (p_mul_loop (S f) lhs ts).
Proof. intros Hf. rewrite u_mul_loop. apply t_binloop; intros; [sub (Hunary f IH)|sub (Hmull f IH)]. Qed.

Lemma t_prefix_run P nm ts : 3 + 16 * length ts <= S f -> nf 1 (length ts) (prefix_run P nm f ts).
Proof.
  intros Hf. unfold prefix_run. pose proof (count_prefix_len P ts) as L.
  destruct (count_prefix P ts) as [k ts1]. cbn [snd] in L. apply nf_map. sub (Hmember f IH).
Qed.

Lemma t_unary ts : 3 + 16 * length ts <= S f -> nf 1 (length ts) (p_unary (S f) ts).
Proof.
  intros Hf. rewrite u_unary.
  assert (D : nf 1 (length ts) (p_member f ts)) by sub (Hmember f IH).
  destruct ts as [|[] ts0]; try exact D.
  - destruct (is_number_tok ts0); [exact D|now apply t_prefix_run].
  - now apply t_prefix_run.
Qed.

Lemma t_mcall_item e id ts : 11 + 16 * length ts <= f -> nf 1 (length ts) (mcall_item f e id ts).
Proof.
  intros Hf. apply (nf_bind 1); [sub (Hargs f IH)|]. intros args l Hl.
  destruct (mk_call_cases id (Some e) args l) as [->|[e' ->]]; [immediate|]. sub (Hpostfix f IH).
Qed.

Lemma t_index_item e ts : 9 + 16 * length ts <= f -> nf 1 (length ts) (index_item f e ts).
Proof.
  intros Hf. apply (nf_bind 1); [sub (Hexpr f IH)|]. intros i l Hl.
  destruct l as [|[] l]; try immediate. sub (Hpostfix f IH).
Qed.

Lemma t_postfix e ts : 1 + 16 * length ts <= S f -> nf 0 (length ts) (p_postfix (S f) e ts).
Proof.
  intros Hf. rewrite u_postfix. destruct ts as [|[] ts]; try immediate.
  - pose proof (t_index_item e ts) as D. destruct ts as [|[] ts]; try immediate; sub D.
  - destruct ts as [|[] ts]; try immediate.
    + destruct ts as [|[] ts]; try sub (Hpostfix f IH). sub (t_mcall_item e text ts).
    + sub (Hpostfix f IH).
Qed.

Lemma t_args ts : 11 + 16 * length ts <= S f -> nf 1 (length ts) (p_args (S f) ts).
Proof.
  intros Hf. rewrite u_args. assert (D : nf 1 (length ts) (p_args_rest f [] ts)) by sub (Hargsr f IH).
  destruct ts as [|[] ts]; try exact D. immediate.
Qed.

Lemma t_args_rest acc ts : 10 + 16 * length ts <= S f -> nf 1 (length ts) (p_args_rest (S f) acc ts).
Proof.
  intros Hf. rewrite u_args_rest. apply (nf_bind 1); [sub (Hexpr f IH)|]. intros a l Hl.
  destruct l as [|[] l]; try immediate. sub (Hargsr f IH).
Qed.

Lemma t_elems acc ts : 10 + 16 * length ts <= S f -> nf 1 (length ts) (p_elems (S f) acc ts).
Proof.
  intros Hf. rewrite u_elems. assert (D : nf 1 (length ts) (elems_item f acc ts)).
  { apply (nf_bind 1); [sub (Hexpr f IH)|]. intros a l Hl. destruct l as [|[] l]; try immediate. sub (Helems f IH). }
  destruct ts as [|[] ts]; try exact D; immediate.
Qed.

Lemma t_entries acc ts : 10 + 16 * length ts <= S f -> nf 1 (length ts) (p_entries (S f) acc ts).
Proof.
  intros Hf. rewrite u_entries. assert (D : nf 1 (length ts) (entries_item f acc ts)).
  { apply (nf_bind 1); [sub (Hexpr f IH)|]. intros k l Hl. destruct l as [|[] l]; try immediate.
    apply (nf_bind 1); [sub (Hexpr f IH)|]. intros v l2 Hl2. destruct l2 as [|[] l2]; try immediate.
    sub (Hentries f IH). }
  destruct ts as [|[] ts]; try exact D; immediate.
Qed.

Lemma t_fields_item n acc ts : 9 + 16 * length ts <= f -> nf 1 (length ts) (fields_item f n acc ts).
Proof.
  intros Hf. apply (nf_bind 1); [sub (Hexpr f IH)|]. intros v l Hl.
  destruct l as [|[] l]; try immediate. sub (Hfields f IH).
Qed.

Lemma t_fields acc ts : 1 + 16 * length ts <= S f -> nf 1 (length ts) (p_fields (S f) acc ts).
Proof.
  intros Hf. rewrite u_fields. destruct ts as [|[] ts]; try immediate.
  - destruct ts as [|[] ts]; try immediate. sub (t_fields_item text acc ts).
  - destruct ts as [|[] ts]; try immediate. sub (t_fields_item text acc ts).
Qed.

Lemma t_ident_forms b ts0 : 16 * length ts0 <= f -> nf 1 (length ts0) (ident_forms f b ts0).
Proof.
  intros Hf. unfold ident_forms.
  destruct (msg_prefix (S (length ts0)) ts0 []) as [[names r]|] eqn:M.
  - apply msg_prefix_len in M.
    assert (D : nf 1 (length r) (msg_lit f b names r)) by (apply nf_map; sub (Hfields f IH)).
    destruct r as [|[] r]; try sub D. destruct r as [|[] r]; try sub D. immediate.
  - unfold call_or_ident. destruct ts0 as [|[] ts]; try immediate. destruct ts as [|[] ts]; try immediate.
    apply (nf_bind 1); [sub (Hargs f IH)|]. intros args l Hl.
    destruct (mk_call_cases (if b then 46%N :: text else text) None args l) as [->|[e ->]]; immediate.
Qed.

Lemma t_primary ts : 1 + 16 * length ts <= S f -> nf 1 (length ts) (p_primary (S f) ts).
Proof.
  intros Hf. rewrite u_primary.
  assert (L : nf 1 (length ts) (lit_body ts)).
  { unfold lit_body. destruct (literal_of ts) as [[e r]|] eqn:E; [|exact I]. apply literal_of_len in E. cbn [nf]. lia. }
  destruct ts as [|[] ts]; try exact L.
  - assert (D : nf 1 (length ts) (list_lit f ts)) by (apply nf_map; sub (Helems f IH)).
    destruct ts as [|[] ts]; try sub D. destruct ts as [|[] ts]; try sub D. immediate.
  - assert (D : nf 1 (length ts) (map_lit f ts)) by (apply nf_map; sub (Hentries f IH)).
    destruct ts as [|[] ts]; try sub D. destruct ts as [|[] ts]; try sub D. immediate.
  - apply (nf_bind 1); [sub (Hexpr f IH)|]. intros e l Hl. destruct l as [|[] l]; immediate.
  - sub (t_ident_forms true ts).
  - sub (t_ident_forms false).
Qed.
End Step.

Lemma all_fuel : forall f, IHs f.
Proof.
  induction f as [|f IH].
  - constructor; intros; lia.
  - constructor; intros.
    + now apply t_expr. + now apply t_or. + now apply t_and. + now apply t_rel. + now apply t_add.
    + now apply t_mul. + now apply t_unary. + now apply t_member. + now apply t_primary.
    + now apply t_or_loop. + now apply t_and_loop. + now apply t_rel_loop. + now apply t_add_loop.
    + now apply t_mul_loop. + now apply t_postfix. + now apply t_args. + now apply t_args_rest.
    + now apply t_elems. + now apply t_entries. + now apply t_fields.
Qed.

Theorem parse_never_out_of_fuel ts : parse_tokens ts <> COutOfFuel.
Proof.
  unfold parse_tokens.
  pose proof (Hexpr _ (all_fuel (parse_fuel ts)) ts) as R. unfold parse_fuel in *.
  lapply R; [clear R; intro R|lia].
  destruct (p_expr _ ts) as [e r| |]; cbn [nf] in R; [|discriminate|contradiction].
  destruct r; discriminate.
Qed.

Theorem compile_never_out_of_fuel src : compile src <> COutOfFuel.
Proof. unfold compile. destruct (lex src); [apply parse_never_out_of_fuel|discriminate]. Qed.
