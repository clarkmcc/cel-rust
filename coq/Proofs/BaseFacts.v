(** Lists, strings, the integer ranges and outcomes as every other file uses them. *)
From Cel.Model Require Import Base.
From Coq Require Import Lia.

Lemma rev'_rev {A} (l : list A) : rev' l = rev l.
Proof. unfold rev'. now rewrite <- rev_alt. Qed.

Lemma rev'_cons {A} (x : A) acc l : rev' (x :: acc) ++ l = rev' acc ++ x :: l.
Proof. rewrite !rev'_rev. cbn [rev]. now rewrite <- app_assoc. Qed.

Lemma rev'_length {A} (l : list A) : length (rev' l) = length l.
Proof. rewrite rev'_rev. apply rev_length. Qed.

Lemma rev'_rev_nil {A} (l : list A) : rev' (rev l ++ []) = l.
Proof. now rewrite app_nil_r, rev'_rev, rev_involutive. Qed.

Lemma take_app {A} (a b : list A) : firstn (length a) (a ++ b) = a /\ skipn (length a) (a ++ b) = b.
Proof.
  rewrite firstn_app, skipn_app, firstn_all, skipn_all, Nat.sub_diag. now rewrite app_nil_r.
Qed.

Lemma app_last {A} (l : list A) x r : (l ++ [x]) ++ r = l ++ x :: r.
Proof. now rewrite <- app_assoc. Qed.

Lemma forallb_imp {A} (p q : A -> bool) l : (forall x, p x = true -> q x = true) ->
  forallb p l = true -> forallb q l = true.
Proof. intros H. rewrite !forallb_forall. auto. Qed.

Lemma forallb_repeat {A} (p : A -> bool) x k : p x = true -> forallb p (repeat x k) = true.
Proof. intros H. induction k; cbn [repeat forallb]; [reflexivity|now rewrite H]. Qed.

Lemma match_cons {A B} (l : list A) (a b : B) : l <> [] -> match l with [] => a | _ :: _ => b end = b.
Proof. now destruct l. Qed.

Lemma str_eqb_eq a b : str_eqb a b = true <-> a = b.
Proof.
  revert b; induction a as [|x a IH]; intros [|y b]; cbn [str_eqb]; try (split; congruence).
  rewrite andb_true_iff, N.eqb_eq, IH. split; [intros [-> ->]; reflexivity|intros [= -> ->]; auto].
Qed.
Lemma str_eqb_refl s : str_eqb s s = true.
Proof. now apply str_eqb_eq. Qed.
Lemma str_eqb_sym a b : str_eqb a b = str_eqb b a.
Proof.
  revert b; induction a as [|x a IH]; intros [|y b]; cbn [str_eqb]; try reflexivity.
  now rewrite IH, N.eqb_sym.
Qed.

Lemma str_eqb_trans a b c : str_eqb a b = true -> str_eqb b c = true -> str_eqb a c = true.
Proof. rewrite !str_eqb_eq. congruence. Qed.

Lemma utf8_len_app a b : utf8_len (a ++ b) = (utf8_len a + utf8_len b)%N.
Proof.
  induction a as [|c a IH]; [reflexivity|].
  change (utf8_len ((c :: a) ++ b)) with (utf8_len1 c + utf8_len (a ++ b))%N.
  change (utf8_len (c :: a)) with (utf8_len1 c + utf8_len a)%N.
  rewrite IH. now rewrite N.add_assoc.
Qed.

Lemma obind_ok {A B} (o : outcome A) (f : A -> outcome B) b :
  obind o f = Ok b -> exists a, o = Ok a /\ f a = Ok b.
Proof. destruct o; cbn; [eauto|discriminate|discriminate]. Qed.

Lemma omap_id {A} (o : outcome A) : omap (fun a => a) o = o.
Proof. now destruct o. Qed.

Lemma omap_pair_fst {A B} (a : A) (o : outcome B) p : omap (pair a) o = Ok p -> a = fst p.
Proof. destruct o; cbn [omap obind]; [now intros [= <-]|discriminate..]. Qed.

Lemma fold_left_invariant {A B} (P : A -> Prop) (f : A -> B -> A) :
  (forall a b, P a -> P (f a b)) -> forall l a, P a -> P (fold_left f l a).
Proof. intros Hf. induction l as [|b l IH]; intros a Ha; cbn [fold_left]; auto. Qed.

Lemma filter_all {A} (l : list A) : filter (fun _ => true) l = l.
Proof. induction l as [|a l IH]; cbn [filter]; congruence. Qed.

Lemma Forall2_weaken {A B} (R : A -> B -> Prop) (Q : A -> Prop) vs ts :
  Forall2 R vs ts -> (forall v t, In t ts -> R v t -> Q v) -> Forall Q vs.
Proof.
  induction 1 as [|v t vs ts Hv _ IH]; intros HQ; constructor.
  - apply (HQ v t); [now left|exact Hv].
  - apply IH. intros v' t' Hin. apply HQ. now right.
Qed.
Lemma Forall2_one {A B} (R : A -> B -> Prop) l b : Forall2 R l [b] -> exists a, l = [a] /\ R a b.
Proof. intros H. inversion H as [|a ? ? ? Ha H']. inversion H'. eauto. Qed.
Lemma Forall2_two {A B} (R : A -> B -> Prop) l b1 b2 :
  Forall2 R l [b1; b2] -> exists a1 a2, l = [a1; a2] /\ R a1 b1 /\ R a2 b2.
Proof.
  intros H. inversion H as [|a ? ? ? Ha H']; subst. apply Forall2_one in H' as (a2 & -> & H2). eauto.
Qed.

Lemma Forall2_map_eq {A B C} (f : A -> C) (g : B -> C) (R : A -> B -> Prop) l l' :
  (forall x y, R x y -> f x = g y) -> Forall2 R l l' -> map f l = map g l'.
Proof. intros H. induction 1 as [|x y l l' Hxy _ IH]; cbn [map]; [reflexivity|]. now rewrite (H x y Hxy), IH. Qed.

Lemma Forall2_flip {A B} (R : A -> B -> Prop) l l' : Forall2 R l l' -> Forall2 (fun y x => R x y) l' l.
Proof. induction 1; constructor; assumption. Qed.

Lemma list_ind3 {A} (P : list A -> Prop) :
  P [] -> (forall x, P [x]) -> (forall x y, P [x; y]) -> (forall x y z r, P r -> P (x :: y :: z :: r)) ->
  forall l, P l.
Proof.
  intros H0 H1 H2 H3. fix IH 1. intros [|x [|y [|z r]]]; [exact H0|apply H1|apply H2|apply H3, IH].
Qed.

(** The anonymous list recursions inside the fixpoints over [expr] and [value], as list
    combinators. *)
Lemma all_go {A} (P : A -> Prop) l :
  (fix go (l : list A) : Prop := match l with [] => True | a :: l' => P a /\ go l' end) l <->
  Forall P l.
Proof. induction l as [|a l IH]; [split; constructor|]. now rewrite Forall_cons_iff, IH. Qed.

Lemma all_go_snd {K A} (P : A -> Prop) (l : list (K * A)) :
  (fix go (l : list (K * A)) : Prop := match l with [] => True | (_, x) :: l' => P x /\ go l' end) l <->
  Forall (fun kv => P (snd kv)) l.
Proof. induction l as [|[k x] l IH]; [split; constructor|]. now rewrite Forall_cons_iff, IH. Qed.

Lemma all_go2 {A B} (P : A -> Prop) (Q : B -> Prop) l :
  (fix go (l : list (A * B)) : Prop :=
     match l with [] => True | (k, v) :: l' => P k /\ Q v /\ go l' end) l <->
  Forall (fun kv => P (fst kv) /\ Q (snd kv)) l.
Proof.
  induction l as [|[k v] l IH]; [split; constructor|]. rewrite Forall_cons_iff, IH. tauto.
Qed.

Lemma Forall_mp {A} (P Q R : A -> Prop) l :
  (forall x, Q x -> R x) -> Forall (fun x => P x -> Q x) l -> Forall P l -> Forall R l.
Proof. intros QR H HP. eapply Forall_impl; [|exact (Forall_and H HP)]. intros x [PQ Px]. exact (QR x (PQ Px)). Qed.

Lemma sum_go {A} (g : A -> nat) l :
  (fix go (l : list A) : nat := match l with [] => 0 | a :: l' => g a + go l' end)%nat l =
  list_sum (map g l).
Proof. induction l as [|a l IH]; [reflexivity|]. cbn [map list_sum fold_right]. now rewrite IH. Qed.

Lemma list_sum_le {A} (f g : A -> nat) l :
  Forall (fun a => f a <= g a)%nat l -> (list_sum (map f l) <= list_sum (map g l))%nat.
Proof.
  induction 1 as [|a l Ha _ IH]; [apply le_n|]. cbn [map list_sum fold_right]. now apply Nat.add_le_mono.
Qed.

Lemma sum_go2 {A B} (g : A -> nat) (h : B -> nat) l :
  (fix go (l : list (A * B)) : nat :=
     match l with [] => 0 | (k, v) :: l' => g k + h v + go l' end)%nat l =
  list_sum (map (fun kv => g (fst kv) + h (snd kv))%nat l).
Proof.
  induction l as [|[k v] l IH]; [reflexivity|]. cbn [map list_sum fold_right fst snd]. now rewrite IH.
Qed.

Lemma in_go {A B} (g : A -> list B) l x :
  In x ((fix go (l : list A) : list B := match l with [] => [] | a :: l' => g a ++ go l' end) l) <->
  exists a, In a l /\ In x (g a).
Proof. exact (in_flat_map g l x). Qed.

Lemma in_go2 {A B C} (g : A -> list C) (h : B -> list C) l x :
  In x ((fix go (l : list (A * B)) : list C :=
           match l with [] => [] | (k, v) :: l' => g k ++ h v ++ go l' end) l) <->
  exists kv, In kv l /\ (In x (g (fst kv)) \/ In x (h (snd kv))).
Proof.
  induction l as [|[k v] l IH]; [split; [intros []|intros (? & [] & _)]|].
  rewrite !in_app_iff, IH. cbn [In]. split.
  - intros [H|[H|(kv & Hkv & H)]]; [exists (k, v); auto..|exists kv; auto].
  - intros (kv & [<-|Hkv] & H); [cbn [fst snd] in H; tauto|eauto].
Qed.

Lemma in_i64_iff z : in_i64 z = true <-> (i64_min <= z <= i64_max)%Z.
Proof. unfold in_i64. lia. Qed.
Lemma in_u64_iff z : in_u64 z = true <-> (0 <= z <= u64_max)%Z.
Proof. unfold in_u64. lia. Qed.
Lemma in_u64_nonneg u : in_u64 u = true -> (0 <= u)%Z.
Proof. unfold in_u64. lia. Qed.
