(** C12: string and bytes literals denote exactly the characters written. *)
From Coq Require Import String.
From Cel.Model Require Import Literals.
From Cel.Proofs Require Import BaseFacts.
From Coq Require Import Lia ZifyBool ZifyN.
Open Scope N_scope.



Lemma quote_eqb q : q = 34 \/ q = 39 -> (q =? 34) || (q =? 39) = true.
Proof. intros [-> | ->]; reflexivity. Qed.
Lemma quote_not_rR q : q = 34 \/ q = 39 -> (q =? ch "r") || (q =? ch "R") = false.
Proof. intros [-> | ->]; reflexivity. Qed.
Lemma quote_not_bB q : q = 34 \/ q = 39 -> (q =? ch "b") || (q =? ch "B") = false.
Proof. intros [-> | ->]; reflexivity. Qed.
Lemma quote_not_ws q : q = 34 \/ q = 39 -> is_ws q = false.
Proof. intros [-> | ->]; reflexivity. Qed.
Lemma rR_eqb p : p = ch "r" \/ p = ch "R" -> (p =? ch "r") || (p =? ch "R") = true.
Proof. intros [-> | ->]; reflexivity. Qed.
Lemma rR_not_bB p : p = ch "r" \/ p = ch "R" -> (p =? ch "b") || (p =? ch "B") = false.
Proof. intros [-> | ->]; reflexivity. Qed.
Lemma rR_not_ws p : p = ch "r" \/ p = ch "R" -> is_ws p = false.
Proof. intros [-> | ->]; reflexivity. Qed.
Lemma bB_eqb b : b = ch "b" \/ b = ch "B" -> (b =? ch "b") || (b =? ch "B") = true.
Proof. intros [-> | ->]; reflexivity. Qed.
Lemma bB_not_ws b : b = ch "b" \/ b = ch "B" -> is_ws b = false.
Proof. intros [-> | ->]; reflexivity. Qed.

Definition hexdigit (upper : bool) (d : N) : N :=
  if d <? 10 then 48 + d else (if upper then 55 else 87) + d.

Fixpoint hexd (upper : bool) (n : nat) (v : N) : str :=
  match n with
  | O => []
  | S n' => hexd upper n' (v / 16) ++ [hexdigit upper (v mod 16)]
  end.

Fixpoint octd (n : nat) (v : N) : str :=
  match n with
  | O => []
  | S n' => octd n' (v / 8) ++ [48 + v mod 8]
  end.

Lemma digit16 (P : N -> Prop) :
  P 0 -> P 1 -> P 2 -> P 3 -> P 4 -> P 5 -> P 6 -> P 7 -> P 8 -> P 9 -> P 10 -> P 11 -> P 12 ->
  P 13 -> P 14 -> P 15 -> forall d, d < 16 -> P d.
Proof.
  intros. assert (E : d = 0 \/ d = 1 \/ d = 2 \/ d = 3 \/ d = 4 \/ d = 5 \/ d = 6 \/ d = 7 \/ d = 8 \/
                      d = 9 \/ d = 10 \/ d = 11 \/ d = 12 \/ d = 13 \/ d = 14 \/ d = 15) by lia.
  repeat (destruct E as [->|E]; [assumption|]). now subst.
Qed.

Lemma hexdigit_ok u d : d < 16 -> hex_val (hexdigit u d) = d /\ is_hex (hexdigit u d) = true.
Proof. revert d. apply digit16; destruct u; split; reflexivity. Qed.

Lemma hex_num_app l d acc : hex_num (l ++ [d]) acc = hex_num l acc * 16 + hex_val d.
Proof. revert acc; induction l as [|c l IH]; intros acc; cbn [app hex_num]; [reflexivity|apply IH]. Qed.

Lemma hexd_props u n : forall v, v < 16 ^ N.of_nat n ->
  hex_num (hexd u n v) 0 = v /\ length (hexd u n v) = n /\ forallb is_hex (hexd u n v) = true.
Proof.
  induction n as [|n IH]; intros v Hv.
  - cbn. repeat split. lia.
  - cbn [hexd]. rewrite Nat2N.inj_succ, N.pow_succ_r' in Hv.
    destruct (IH (v / 16)) as (H1 & H2 & H3); [lia|].
    destruct (hexdigit_ok u (v mod 16)) as [D1 D2]; [lia|].
    rewrite hex_num_app, H1, D1, app_length, H2, forallb_app, H3. cbn [length forallb]. rewrite D2.
    repeat split; lia.
Qed.

Lemma oct_num_app l d acc : oct_num (l ++ [d]) acc = oct_num l acc * 8 + (d - 48).
Proof. revert acc; induction l as [|c l IH]; intros acc; cbn [app oct_num]; [reflexivity|apply IH]. Qed.

Lemma octd_props n : forall v, v < 8 ^ N.of_nat n ->
  oct_num (octd n v) 0 = v /\ length (octd n v) = n /\ forallb is_oct (octd n v) = true.
Proof.
  induction n as [|n IH]; intros v Hv.
  - cbn. repeat split. lia.
  - cbn [octd]. rewrite Nat2N.inj_succ, N.pow_succ_r' in Hv.
    destruct (IH (v / 8)) as (H1 & H2 & H3); [lia|].
    rewrite oct_num_app, H1, app_length, H2, forallb_app, H3. cbn [length forallb].
    assert (D : is_oct (48 + v mod 8) = true) by (unfold is_oct; lia).
    rewrite D. repeat split; lia.
Qed.

Lemma un_verbatim f raw c r acc : (raw = true \/ c <> 92) ->
  unescape (S f) raw (c :: r) acc = unescape f raw r (UChar c :: acc).
Proof.
  intros H. cbn [unescape]. destruct raw; [reflexivity|].
  destruct H as [H|H]; [discriminate|]. apply N.eqb_neq in H. now rewrite H.
Qed.

Lemma un_simple f e v r acc : single_escape e = Some v ->
  unescape (S f) false (92 :: e :: r) acc = unescape f false r (UChar v :: acc).
Proof. intros H. cbn [unescape orb negb N.eqb Pos.eqb]. now rewrite H. Qed.

Lemma un_hex2 f (x : N) ds r acc : (x = ch "x" \/ x = ch "X") ->
  length ds = 2%nat -> forallb is_hex ds = true ->
  unescape (S f) false (92 :: x :: ds ++ r) acc = unescape f false r (USmall (hex_num ds 0) :: acc).
Proof.
  intros Hx Hl Hh. destruct ds as [|a [|b [|? ?]]]; try discriminate.
  cbn [unescape orb negb N.eqb Pos.eqb app].
  assert (Es : single_escape x = None) by (destruct Hx; subst; reflexivity).
  rewrite Es. cbn [firstn length Nat.eqb andb skipn].
  assert (Ex : ((x =? ch "x") || (x =? ch "X")) = true) by (destruct Hx; subst; reflexivity).
  rewrite Ex. now rewrite Hh.
Qed.

(** \u takes four hex digits, \U eight *)
Definition u_form (x : N) (n : nat) : Prop := x = ch "u" /\ n = 4%nat \/ x = ch "U" /\ n = 8%nat.

Lemma un_u f x n ds r acc : u_form x n -> length ds = n -> forallb is_hex ds = true -> is_scalar (hex_num ds 0) = true ->
  unescape (S f) false (92 :: x :: ds ++ r) acc = unescape f false r (UChar (hex_num ds 0) :: acc).
Proof.
  intros Hx Hl Hh Hs. destruct (take_app ds r) as [T1 T2]. rewrite Hl in T1, T2.
  destruct Hx as [[-> ->]|[-> ->]]; cbn [unescape orb negb N.eqb Pos.eqb single_escape];
    now rewrite T1, T2, Hl, Hh, Hs.
Qed.

Lemma un_oct f ds r acc : length ds = 3%nat -> forallb is_oct ds = true ->
  (match ds with d :: _ => d <= 51 | [] => False end) ->
  unescape (S f) false (92 :: ds ++ r) acc = unescape f false r (USmall (oct_num ds 0) :: acc).
Proof.
  intros Hl Ho Hd. destruct ds as [|a [|b [|c [|? ?]]]]; try discriminate.
  cbn [forallb] in Ho. rewrite !andb_true_iff in Ho. destruct Ho as (Ha & Hb & Hc & _).
  assert (E : a = 48 \/ a = 49 \/ a = 50 \/ a = 51) by (unfold is_oct in Ha; lia).
  destruct E as [->|[->|[->| ->]]]; cbn; now rewrite Hb, Hc.
Qed.

(** spelling a string between quotes [q], with a free choice of spelling per character *)
Inductive choice := CVerb | CSimple | CHexL | CHexU | COct | CU4 | CU8.

Definition simple_for (c : N) : option N :=
  if c =? 7 then Some (ch "a") else if c =? 8 then Some (ch "b") else if c =? 12 then Some (ch "f")
  else if c =? 10 then Some (ch "n") else if c =? 13 then Some (ch "r") else if c =? 9 then Some (ch "t")
  else if c =? 11 then Some (ch "v")
  else if (c =? 92) || (c =? ch "?") || (c =? 34) || (c =? 39) || (c =? 96) then Some c
  else None.

Definition render1 (q c : N) (k : choice) : option str :=
  match k with
  | CVerb => if (c =? q) || (c =? 92) || (c =? 10) || (c =? 13) then None else Some [c]
  | CSimple => option_map (fun e => [92; e]) (simple_for c)
  | CHexL => if c <? 256 then Some (92 :: ch "x" :: hexd false 2 c) else None
  | CHexU => if c <? 256 then Some (92 :: ch "X" :: hexd true 2 c) else None
  | COct => if c <? 256 then Some (92 :: octd 3 c) else None
  | CU4 => if c <? 65536 then Some (92 :: ch "u" :: hexd false 4 c) else None
  | CU8 => if c <? 4294967296 then Some (92 :: ch "U" :: hexd true 8 c) else None
  end.

Fixpoint render (q : N) (s : str) (ks : list choice) : option str :=
  match s, ks with
  | [], [] => Some []
  | c :: s', k :: ks' =>
      match render1 q c k, render q s' ks' with
      | Some a, Some b => Some (a ++ b)
      | _, _ => None
      end
  | _, _ => None
  end.

Definition unit_cp (u : unit_) : N := match u with UChar c => c | USmall b => b end.

Definition unit_bytes (u : unit_) : list N := match u with UChar c => utf8_enc1 c | USmall b => [b] end.

Lemma simple_for_spec c e r : simple_for c = Some e -> single_escape e = Some c /\ esc_len (e :: r) = Some 1%nat.
Proof.
  unfold simple_for.
  repeat match goal with
         | |- context [c =? ?k] =>
             let E := fresh in destruct (c =? k) eqn:E; [apply N.eqb_eq in E; subst; cbn|cbn [orb]]
         end; try (intros [= <-]; split; reflexivity); discriminate.
Qed.

(** [e] after a backslash is one escape sequence - one for the scanners, and one that is decoded
    back to the character [c] *)
Definition escape_of (c : N) (e : str) : Prop :=
  (forall r, esc_len (e ++ r) = Some (length e)) /\
  (is_scalar c = true -> forall f r acc, exists u,
     unescape (S f) false (92 :: e ++ r) acc = unescape f false r (u :: acc) /\ unit_cp u = c).

Lemma escape_simple c e : simple_for c = Some e -> escape_of c [e].
Proof.
  intros E. split.
  - intros r. exact (proj2 (simple_for_spec c e r E)).
  - intros _ f r acc. exists (UChar c). split; [|reflexivity]. apply un_simple. exact (proj1 (simple_for_spec c e r E)).
Qed.

Lemma escape_x x ds c : (x = ch "x" \/ x = ch "X") -> hex_num ds 0 = c /\ length ds = 2%nat /\ forallb is_hex ds = true ->
  escape_of c (x :: ds).
Proof.
  intros Hx (<- & Hl & Hh). split.
  - intros r. destruct ds as [|a [|b [|? ?]]]; try discriminate.
    cbn [forallb] in Hh. rewrite !andb_true_iff in Hh. destruct Hh as (Ha & Hb & _).
    destruct Hx as [-> | ->]; cbn; now rewrite Ha, Hb.
  - intros _ f r acc. exists (USmall (hex_num ds 0)). split; [now apply un_hex2|reflexivity].
Qed.

Lemma escape_u x n ds c : u_form x n -> hex_num ds 0 = c /\ length ds = n /\ forallb is_hex ds = true ->
  escape_of c (x :: ds).
Proof.
  intros Hx (<- & Hl & Hh). split.
  - intros r. destruct Hx as [[-> ->]|[-> ->]];
      (destruct ds as [|a [|b [|c [|d [|e [|g [|h [|i [|? ?]]]]]]]]]; try discriminate);
      cbn [forallb] in Hh; rewrite andb_true_r, !andb_assoc in Hh; cbn; now rewrite Hh.
  - intros Hs f r acc. exists (UChar (hex_num ds 0)). split; [now apply (un_u f x n)|reflexivity].
Qed.

Lemma escape_o ds c : oct_num ds 0 = c /\ length ds = 3%nat /\ forallb is_oct ds = true ->
  (match ds with d :: _ => d <= 51 | [] => False end) -> escape_of c ds.
Proof.
  intros (<- & Hl & Ho) Hd. split.
  - intros r. destruct ds as [|a [|b [|c [|? ?]]]]; try discriminate.
    cbn [forallb] in Ho. rewrite !andb_true_iff in Ho. destruct Ho as (Ha & Hb & Hc & _).
    assert (E : a = 48 \/ a = 49 \/ a = 50 \/ a = 51) by (unfold is_oct in Ha; lia).
    destruct E as [->|[->|[->| ->]]]; cbn; now rewrite Hb, Hc.
  - intros _ f r acc. exists (USmall (oct_num ds 0)). split; [now apply un_oct|reflexivity].
Qed.

(** One rendered character is either the character itself, or a backslash and one escape sequence. *)
Lemma render1_spec q c k a : render1 q c k = Some a ->
  (a = [c] /\ (c =? q) || (c =? 92) || (c =? 10) || (c =? 13) = false) \/
  exists e, a = 92 :: e /\ escape_of c e.
Proof.
  intros Hr. destruct k; cbn [render1] in Hr.
  - destruct ((c =? q) || (c =? 92) || (c =? 10) || (c =? 13)) eqn:E; [discriminate|]. injection Hr as <-. now left.
  - destruct (simple_for c) as [e|] eqn:E; [|discriminate]. injection Hr as <-.
    right. exists [e]. split; [reflexivity|now apply escape_simple].
  - destruct (c <? 256) eqn:E; [|discriminate]. injection Hr as <-.
    right. exists (ch "x" :: hexd false 2 c). split; [reflexivity|]. apply escape_x; [now left|].
    apply hexd_props. now apply N.ltb_lt.
  - destruct (c <? 256) eqn:E; [|discriminate]. injection Hr as <-.
    right. exists (ch "X" :: hexd true 2 c). split; [reflexivity|]. apply escape_x; [now right|].
    apply hexd_props. now apply N.ltb_lt.
  - destruct (c <? 256) eqn:E; [|discriminate]. injection Hr as <-.
    right. exists (octd 3 c). split; [reflexivity|]. apply N.ltb_lt in E. apply escape_o; [|cbn [octd app]; lia].
    apply octd_props. cbn. lia.
  - destruct (c <? 65536) eqn:E; [|discriminate]. injection Hr as <-.
    right. exists (ch "u" :: hexd false 4 c). split; [reflexivity|]. apply (escape_u _ 4); [now left|].
    apply hexd_props. now apply N.ltb_lt.
  - destruct (c <? 4294967296) eqn:E; [|discriminate]. injection Hr as <-.
    right. exists (ch "U" :: hexd true 8 c). split; [reflexivity|]. apply (escape_u _ 8); [now right|].
    apply hexd_props. now apply N.ltb_lt.
Qed.

Lemma un_render q s : forall ks body, render q s ks = Some body ->
  forallb is_scalar s = true ->
  forall f acc, (length body < f)%nat ->
  exists us, unescape f false body acc = Some (rev' acc ++ us) /\ map unit_cp us = s.
Proof.
  induction s as [|c s IH]; intros ks body Hr Hs f acc Hf.
  - destruct ks; [|discriminate]. injection Hr as <-. exists []. split; [|reflexivity].
    destruct f; [cbn in Hf; lia|]. now rewrite app_nil_r.
  - destruct ks as [|k ks]; [discriminate|]. cbn [render] in Hr.
    destruct (render1 q c k) as [a|] eqn:E1; [|discriminate].
    destruct (render q s ks) as [b|] eqn:E2; [|discriminate]. injection Hr as <-.
    cbn [forallb] in Hs. apply andb_true_iff in Hs as [Hc Hs].
    destruct f as [|f]; [lia|].
    assert (Hu : exists u, unescape (S f) false (a ++ b) acc = unescape f false b (u :: acc) /\ unit_cp u = c /\ (1 <= length a)%nat).
    { destruct (render1_spec q c k a E1) as [[-> E]|(e & -> & _ & U)].
      - exists (UChar c). split; [apply un_verbatim; right; lia|split; [reflexivity|cbn; lia]].
      - destruct (U Hc f b acc) as (u & U1 & U2). exists u. repeat split; [exact U1|exact U2|cbn; lia]. }
    destruct Hu as (u & Hu & Ucp & Hn). rewrite Hu. rewrite app_length in Hf.
    destruct (IH ks b E2 Hs f (u :: acc)) as (us & H1 & H2); [lia|].
    exists (u :: us). split; [now rewrite H1, rev'_cons|]. cbn [map]. now rewrite Ucp, H2.
Qed.

Lemma un_raw s : forall f acc, (length s < f)%nat ->
  unescape f true s acc = Some (rev' acc ++ map UChar s).
Proof.
  induction s as [|c s IH]; intros f acc Hf; (destruct f as [|f]; [cbn in Hf; lia|]).
  - now rewrite app_nil_r.
  - rewrite un_verbatim by now left. rewrite IH by (cbn in Hf; lia). now rewrite rev'_cons.
Qed.

(** [strip_delims]: a one-quote literal whose body does not begin with the quote, and the
    triple-quoted forms whatever the body is *)
Lemma strip_short q body : (q = 34 \/ q = 39) ->
  (match body with c :: _ => c <> q | [] => True end) ->
  strip_delims (q :: body ++ [q]) = Some body.
Proof.
  intros Hq Hb. unfold strip_delims. rewrite (quote_eqb q Hq).
  assert (Et : match body ++ [q] with
               | q2 :: q3 :: _ =>
                   ((q2 =? q) && (q3 =? q)) && Nat.leb 6 (length (q :: body ++ [q])) &&
                   match rev' (q :: body ++ [q]) with
                   | e1 :: e2 :: e3 :: _ => (e1 =? q) && (e2 =? q) && (e3 =? q)
                   | _ => false
                   end
               | _ => false
               end = false).
  { destruct body as [|c body]; [reflexivity|]. cbn [app].
    destruct (body ++ [q]) eqn:E; [destruct body; discriminate|].
    assert (c =? q = false) by (apply N.eqb_neq; exact Hb). now rewrite H. }
  rewrite Et.
  assert (Er : rev' (q :: body ++ [q]) = q :: rev' body ++ [q]).
  { rewrite !rev'_rev. cbn [rev]. rewrite rev_app_distr. reflexivity. }
  rewrite Er. rewrite N.eqb_refl.
  assert (El : Nat.ltb (length (q :: body ++ [q])) (2 * 1) = false).
  { apply Nat.ltb_ge. cbn [length]. rewrite app_length. cbn. lia. }
  rewrite El. f_equal. cbn [skipn length].
  rewrite app_length. cbn [length].
  replace (S (length body + 1) - 2 * 1)%nat with (length body) by lia.
  exact (proj1 (take_app body [q])).
Qed.

Lemma strip_long q body : (q = 34 \/ q = 39) ->
  strip_delims (q :: q :: q :: body ++ [q; q; q]) = Some body.
Proof.
  intros Hq. unfold strip_delims. rewrite (quote_eqb q Hq).
  assert (Er : rev' (q :: q :: q :: body ++ [q; q; q]) = q :: q :: q :: rev' body ++ [q; q; q]).
  { rewrite !rev'_rev. cbn [rev]. rewrite rev_app_distr. cbn [rev app]. rewrite <- !app_assoc. reflexivity. }
  rewrite Er, !N.eqb_refl. cbn [andb].
  assert (El : Nat.leb 6 (length (q :: q :: q :: body ++ [q; q; q])) = true).
  { apply Nat.leb_le. cbn [length]. rewrite app_length. cbn [length]. lia. }
  rewrite El. cbv beta iota zeta.
  assert (El2 : Nat.ltb (length (q :: q :: q :: body ++ [q; q; q])) (2 * 3) = false).
  { apply Nat.ltb_ge. cbn [length]. rewrite app_length. cbn [length]. lia. }
  cbn [andb]. rewrite El2. f_equal. cbn [skipn length]. rewrite app_length. cbn [length].
  replace (S (S (S (length body + 3))) - 2 * 3)%nat with (length body) by lia.
  exact (proj1 (take_app body [q; q; q])).
Qed.

Lemma render_head q s ks body : (q = 34 \/ q = 39) -> render q s ks = Some body ->
  match body with c :: _ => c <> q | [] => True end.
Proof.
  intros Hq. destruct s as [|c s], ks as [|k ks]; cbn [render]; try discriminate.
  - now intros [= <-].
  - destruct (render1 q c k) as [a|] eqn:E; [|discriminate].
    destruct (render q s ks) as [b|]; [|discriminate]. intros [= <-].
    destruct (render1_spec q c k a E) as [[-> Ec]|(e & -> & _)]; cbn [app]; lia.
Qed.

Lemma decode_string_units tok : decode_string tok = option_map (map unit_cp) (decode_units tok).
Proof. reflexivity. Qed.
Lemma decode_bytes_units b tok : decode_bytes (b :: tok) = option_map (flat_map unit_bytes) (decode_units tok).
Proof. reflexivity. Qed.

Lemma decode_units_render q tok s ks body : (q = 34 \/ q = 39) -> forallb is_scalar s = true ->
  render q s ks = Some body -> strip_delims (q :: tok) = Some body ->
  exists us, decode_units (q :: tok) = Some us /\ map unit_cp us = s.
Proof.
  intros Hq Hs Hr Hd. unfold decode_units, literal_body. rewrite (quote_not_rR q Hq), Hd. cbn [option_map].
  destruct (un_render q s ks body Hr Hs (S (length body)) []) as (us & Hu & Hm); [lia|]. now exists us.
Qed.

Lemma decode_units_raw p tok body : (p = ch "r" \/ p = ch "R") -> strip_delims tok = Some body ->
  decode_units (p :: tok) = Some (map UChar body).
Proof.
  intros Hp Hd. unfold decode_units, literal_body. rewrite (rR_eqb p Hp), Hd. cbn [option_map].
  now rewrite un_raw by lia.
Qed.

(** A string spelled between quotes of either kind decodes to itself; a bytes literal to the bytes
    of its units ([unit_bytes]: a \x or octal escape is one byte, anything else its UTF-8
    encoding); raw literals are taken verbatim. *)
Lemma decode_string_render q tok s ks body : (q = 34 \/ q = 39) -> forallb is_scalar s = true ->
  render q s ks = Some body -> strip_delims (q :: tok) = Some body -> decode_string (q :: tok) = Some s.
Proof.
  intros Hq Hs Hr Hd. destruct (decode_units_render q tok s ks body Hq Hs Hr Hd) as (us & D & <-).
  now rewrite decode_string_units, D.
Qed.

Lemma decode_bytes_render p q tok s ks body : (q = 34 \/ q = 39) -> forallb is_scalar s = true ->
  render q s ks = Some body -> strip_delims (q :: tok) = Some body ->
  exists us, decode_bytes (p :: q :: tok) = Some (flat_map unit_bytes us) /\ map unit_cp us = s.
Proof.
  intros Hq Hs Hr Hd. destruct (decode_units_render q tok s ks body Hq Hs Hr Hd) as (us & D & M).
  exists us. now rewrite decode_bytes_units, D.
Qed.

Lemma decode_string_raw p tok s : (p = ch "r" \/ p = ch "R") -> strip_delims tok = Some s ->
  decode_string (p :: tok) = Some s.
Proof.
  intros Hp Hd. rewrite decode_string_units, (decode_units_raw p tok s Hp Hd). cbn [option_map].
  rewrite map_map. apply f_equal, map_id.
Qed.

(** Integer literals. *)
From Cel.Model Require Import FloatText.
From Cel.Proofs Require Import Digits.
Open Scope Z_scope.

(** A decimal digit string is not mistaken for a hexadecimal literal. *)
Lemma digit_not_x c : is_digit c = true -> (c =? ch "x")%N = false.
Proof. unfold is_digit. intros H. cbn. lia. Qed.

Lemma dec_not_hex t : forallb is_digit t = true ->
  match t with
  | z :: x :: hs => if ((z =? 48) && (x =? ch "x"))%N then Z.of_N (hex_num hs 0) else dec_num t 0
  | _ => dec_num t 0
  end = dec_num t 0.
Proof.
  intros H. destruct t as [|z [|x hs]]; try reflexivity.
  cbn [forallb] in H. apply andb_true_iff in H as [_ H]. apply andb_true_iff in H as [Hx _].
  now rewrite (digit_not_x x Hx), andb_false_r.
Qed.

(** A decimal literal denotes its number, negated after a minus sign, if that is an int; so every
    int in range, written with its sign, denotes itself. *)
Lemma int_literal_nat neg n : 0 <= n ->
  int_literal neg (nat_digits n) = (let v := if neg then - n else n in if in_i64 v then Some v else None).
Proof.
  intros Hn. destruct (nat_digits_spec n Hn) as (H1 & H2 & _).
  unfold int_literal. now rewrite (dec_not_hex _ H2), H1.
Qed.

Lemma int_literal_dec z : in_i64 z = true -> int_literal (z <? 0) (nat_digits (Z.abs z)) = Some z.
Proof.
  intros Hz. rewrite int_literal_nat by lia. cbv zeta.
  destruct (Z.ltb_spec z 0); [replace (- Z.abs z) with z by lia|replace (Z.abs z) with z by lia]; now rewrite Hz.
Qed.

Lemma int_literal_range neg t z : int_literal neg t = Some z -> in_i64 z = true.
Proof.
  unfold int_literal.
  match goal with |- (if in_i64 ?v then _ else _) = _ -> _ => destruct (in_i64 v) eqn:E end;
    [intros [= <-]; exact E|discriminate].
Qed.


Lemma uint_literal_dec (u : Z) (sfx : N) : in_u64 u = true ->
  uint_literal (nat_digits u ++ [sfx]) = Some u.
Proof.
  intros Hu. destruct (nat_digits_spec u (in_u64_nonneg u Hu)) as (H1 & H2 & _).
  unfold uint_literal. rewrite removelast_last, (dec_not_hex _ H2), H1. now rewrite Hu.
Qed.

(** Hexadecimal spellings (any number of digits, either case). *)
Lemma int_literal_hex upper n v neg : (v < 16 ^ N.of_nat n)%N ->
  int_literal neg (48%N :: ch "x" :: hexd upper n v) =
  let z := if neg then - Z.of_N v else Z.of_N v in if in_i64 z then Some z else None.
Proof.
  intros Hv. destruct (hexd_props upper n v Hv) as (H1 & _ & _).
  unfold int_literal. change ((48 =? 48)%N && (ch "x" =? ch "x")%N) with true. cbn iota. now rewrite H1.
Qed.
