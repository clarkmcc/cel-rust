(** Keys, association lists and induction on values: what the proofs about [==], conversion
    and export share. *)
From Cel.Model Require Import Values.
From Cel.Proofs Require Import BaseFacts.
Open Scope Z_scope.

Lemma key_eqb_eq a b : key_eqb a b = true <-> a = b.
Proof.
  destruct a, b; cbn [key_eqb]; try (split; [discriminate|intros [=]]).
  - rewrite Z.eqb_eq. split; [now intros ->|now intros [= ->]].
  - rewrite Z.eqb_eq. split; [now intros ->|now intros [= ->]].
  - rewrite Bool.eqb_true_iff. split; [now intros ->|now intros [= ->]].
  - rewrite str_eqb_eq. split; [now intros ->|now intros [= ->]].
Qed.
Lemma key_eqb_refl k : key_eqb k k = true.
Proof. now apply key_eqb_eq. Qed.

Lemma assoc_get_set {B} k k' (v : B) m :
  assoc_get k (assoc_set k' v m) = if key_eqb k k' then Some v else assoc_get k m.
Proof.
  induction m as [|[k2 v2] m IH]; cbn [assoc_set assoc_get]; [reflexivity|].
  destruct (key_eqb k' k2) eqn:E2; cbn [assoc_get].
  - apply key_eqb_eq in E2. subst k2. now destruct (key_eqb k k').
  - destruct (key_eqb k k2) eqn:E3; [|exact IH].
    destruct (key_eqb k k') eqn:E4; [|reflexivity].
    apply key_eqb_eq in E3, E4. subst. rewrite key_eqb_refl in E2. discriminate.
Qed.

Lemma assoc_get_app {B} k (a b : list (key * B)) :
  assoc_get k (a ++ b) = match assoc_get k a with Some v => Some v | None => assoc_get k b end.
Proof.
  induction a as [|[k2 v2] a IH]; cbn [app assoc_get]; [reflexivity|]. now destruct (key_eqb k k2).
Qed.

Lemma assoc_get_in {B} k (m : list (key * B)) v : assoc_get k m = Some v -> In (k, v) m.
Proof.
  induction m as [|[k' v'] m IH]; cbn [assoc_get]; [discriminate|].
  destruct (key_eqb k k') eqn:E.
  - intros [= ->]. apply key_eqb_eq in E; subst. now left.
  - intros H. right. auto.
Qed.

Lemma in_assoc_get {B} k (m : list (key * B)) v : NoDup (map fst m) -> In (k, v) m -> assoc_get k m = Some v.
Proof.
  induction m as [|[k' v'] m IH]; cbn [assoc_get map fst]; [intros _ []|].
  intros Hnd [H|H].
  - injection H as -> ->. now rewrite key_eqb_refl.
  - inversion Hnd as [|? ? Hni Hnd']; subst.
    destruct (key_eqb k k') eqn:E; [|auto].
    apply key_eqb_eq in E; subst. exfalso. apply Hni. change k' with (fst (k', v)). now apply in_map.
Qed.

Lemma assoc_set_keys {B} k (v : B) m k' :
  In k' (map fst (assoc_set k v m)) <-> k' = k \/ In k' (map fst m).
Proof.
  induction m as [|[k2 v2] m IH]; cbn [assoc_set map fst In].
  - intuition.
  - destruct (key_eqb k k2) eqn:E; cbn [map fst In].
    + apply key_eqb_eq in E. subst k2. intuition.
    + rewrite IH. intuition.
Qed.

Lemma assoc_set_nodup {B} k (v : B) m : NoDup (map fst m) -> NoDup (map fst (assoc_set k v m)).
Proof.
  induction m as [|[k2 v2] m IH]; cbn [assoc_set map fst]; intros H.
  - constructor; [intros []|constructor].
  - inversion H as [|? ? Hn Hd]; subst. destruct (key_eqb k k2) eqn:E; cbn [map fst].
    + apply key_eqb_eq in E. subst k2. now constructor.
    + constructor; [|now apply IH]. rewrite assoc_set_keys. intros [->|Hin]; [|contradiction].
      rewrite key_eqb_refl in E. discriminate.
Qed.

Lemma assoc_set_fresh {B} k (v : B) m : ~ In k (map fst m) -> assoc_set k v m = m ++ [(k, v)].
Proof.
  induction m as [|[k' v'] m IH]; cbn [assoc_set map fst In app]; [reflexivity|]. intros H.
  destruct (key_eqb k k') eqn:E; [apply key_eqb_eq in E; subst; tauto|]. rewrite IH; tauto.
Qed.

(** Induction on values with the hypotheses of the contents as [Forall]s.  The constructors without
    values inside share one case, [Hleaf], whose guard is [False] on the others: its users
    [destruct] the value and drop those by [contradiction]. *)
Section ValueInd.
  Variable P : value -> Prop.
  Hypothesis Hlist : forall l, Forall P l -> P (VList l).
  Hypothesis Hmap : forall m, Forall (fun kv => P (snd kv)) m -> P (VMap m).
  Hypothesis Hfun0 : forall n, P (VFun n None).
  Hypothesis Hfun1 : forall n x, P x -> P (VFun n (Some x)).
  Hypothesis Hleaf : forall v, match v with VList _ | VMap _ | VFun _ _ => False | _ => True end -> P v.

  Fixpoint value_ind' (v : value) : P v :=
    match v with
    | VList l => Hlist l ((fix go (l : list value) : Forall P l :=
                             match l with
                             | [] => Forall_nil _
                             | a :: l' => Forall_cons _ (value_ind' a) (go l')
                             end) l)
    | VMap m => Hmap m ((fix go (l : list (key * value)) : Forall (fun kv => P (snd kv)) l :=
                           match l with
                           | [] => Forall_nil _
                           | (k, x) :: l' => Forall_cons (k, x) (value_ind' x) (go l')
                           end) m)
    | VFun n None => Hfun0 n
    | VFun n (Some x) => Hfun1 n x (value_ind' x)
    | v0 => Hleaf v0 I
    end.
End ValueInd.
