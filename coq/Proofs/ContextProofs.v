(** C11: variables resolve to the innermost binding and scopes never leak. *)
From Cel.Model Require Import Eval.
From Cel.Proofs Require Import BaseFacts.

Lemma str_eqb_true_eq a b : str_eqb a b = true -> a = b.
Proof. apply str_eqb_eq. Qed.

Lemma assoc_latest x (v : value) (s : scope) : str_assoc x ((x, v) :: s) = Some v.
Proof. cbn. now rewrite str_eqb_refl. Qed.

Lemma lookup_define c x v y :
  lookup (define c x v) y = if str_eqb y x then Ok v else lookup c y.
Proof.
  unfold lookup, define; cbn [scopes].
  destruct (scopes c) as [|s ss]; cbn [lookup_scopes str_assoc]; destruct (str_eqb y x); reflexivity.
Qed.

Lemma lookup_define_same c x v : lookup (define c x v) x = Ok v.
Proof. now rewrite lookup_define, str_eqb_refl. Qed.

Lemma lookup_define_other c x v y : str_eqb y x = false ->
  lookup (define c x v) y = lookup c y.
Proof. intros E. now rewrite lookup_define, E. Qed.

Lemma lookup_push c y : lookup (push c) y = lookup c y.
Proof. reflexivity. Qed.

Lemma str_assoc_app {B} x (a b : list (str * B)) :
  str_assoc x (a ++ b) = match str_assoc x a with Some v => Some v | None => str_assoc x b end.
Proof. induction a as [|[k v] a IH]; cbn [app str_assoc]; [reflexivity|]. now destruct (str_eqb x k). Qed.

Lemma lookup_scopes_concat x ss : lookup_scopes x ss = str_assoc x (concat ss).
Proof.
  induction ss as [|s ss IH]; cbn [lookup_scopes concat]; [reflexivity|].
  rewrite str_assoc_app. destruct (str_assoc x s); [reflexivity|exact IH].
Qed.

Lemma lookup_innermost x ss v :
  lookup_scopes x ss = Some v <->
  exists pre s post, ss = pre ++ s :: post /\
                     (forall s', In s' pre -> str_assoc x s' = None) /\ str_assoc x s = Some v.
Proof.
  split.
  - induction ss as [|s ss IH]; cbn [lookup_scopes]; [discriminate|].
    destruct (str_assoc x s) as [w|] eqn:Es.
    + intros [= <-]. exists [], s, ss. repeat split; [intros s' []|assumption].
    + intros H. destruct (IH H) as (pre & s0 & post & -> & Hpre & Hs). exists (s :: pre), s0, post.
      repeat split; [|assumption]. intros s' [<-|Hin]; auto.
  - intros (pre & s & post & -> & Hpre & Hs). induction pre as [|p pre IH]; cbn [app lookup_scopes].
    + now rewrite Hs.
    + rewrite (Hpre p (or_introl eq_refl)). apply IH. intros s' Hin. apply Hpre. now right.
Qed.

Lemma lookup_none x ss :
  lookup_scopes x ss = None <-> forall s, In s ss -> str_assoc x s = None.
Proof.
  induction ss as [|s ss IH]; cbn [lookup_scopes].
  - split; [intros _ s []|reflexivity].
  - destruct (str_assoc x s) eqn:Es.
    + split; [discriminate|]. intros H. rewrite (H s (or_introl eq_refl)) in Es. discriminate.
    + rewrite IH. split; [intros H s' [<-|Hin]; auto|intros H s' Hin; apply H; now right].
Qed.

(** [S d] inner scopes are open above [base], which is untouched, and the registry is [fs]. *)
Definition above (base : list scope) (fs : list (str * fdef)) (st : nat * ctx * list (outcome value))
  : Prop :=
  let '(d, c, _) := st in
  exists inner, length inner = S d /\ scopes c = inner ++ base /\ funs c = fs.

Lemma run_cop_above base fs st o : above base fs st -> above base fs (run_cop st o).
Proof.
  destruct st as [[d c] outs]. intros (inner & Hl & Hs & Hf).
  destruct o as [x v| | |x]; cbn [run_cop above].
  - destruct inner as [|s inner]; [discriminate|]. exists (((x, v) :: s) :: inner).
    cbn [define scopes funs]. rewrite Hs. auto.
  - exists ([] :: inner). cbn [push scopes funs length]. rewrite Hs, Hl. auto.
  - destruct d as [|d]; [exists inner; auto|].
    destruct inner as [|s inner]; [discriminate|]. exists inner.
    cbn [pop scopes funs]. rewrite Hs. injection Hl as Hl. auto.
  - exists inner. auto.
Qed.
