(** One-step unfoldings of the parser functions.  The right-hand sides are written with [pbind]
    and with a name for every body that the model's nested token patterns repeat, so that a proof
    about a parser function splits on the tokens once and then speaks about a named body.
    Each equation is checked by unfolding the mutual fixpoint once ([cbn] refolds the calls to
    the other functions; comparing the unfolded calls with the constants is what costs). *)
From Coq Require Import String.
From Cel.Model Require Import Grammar.
Open Scope nat_scope.

Definition pbind {A B} (a : pres A) (k : A -> list tk -> pres B) : pres B :=
  match a with POk x l => k x l | PFail => PFail | PFuel => PFuel end.

(** after [c ?]: the two branches of a conditional *)
Definition cond_tail (f : nat) (c : expr) (ts : list tk) : pres expr :=
  pbind (p_or f ts) (fun a l =>
    match l with
    | TColon :: ts2 => pbind (p_expr f ts2) (fun b => POk (ECall op_conditional None [c; a; b]))
    | _ => PFail
    end).

Lemma u_expr f ts : p_expr (S f) ts =
  pbind (p_or f ts) (fun c l => match l with TQuestion :: ts1 => cond_tail f c ts1 | _ => POk c l end).
Proof. cbn [p_expr]. destruct (p_or f ts) as [c [|[] l]| |]; reflexivity. Qed.

Lemma u_or f ts : p_or (S f) ts = pbind (p_and f ts) (fun t => p_or_loop f [t]).
Proof. cbn [p_or]. exact eq_refl. Qed.

Lemma u_and f ts : p_and (S f) ts = pbind (p_rel f ts) (fun t => p_and_loop f [t]).
Proof. cbn [p_and]. exact eq_refl. Qed.

Lemma u_rel f ts : p_rel (S f) ts = pbind (p_add f ts) (p_rel_loop f).
Proof. cbn [p_rel]. exact eq_refl. Qed.

Lemma u_add f ts : p_add (S f) ts = pbind (p_mul f ts) (p_add_loop f).
Proof. cbn [p_add]. exact eq_refl. Qed.

Lemma u_mul f ts : p_mul (S f) ts = pbind (p_unary f ts) (p_mul_loop f).
Proof. cbn [p_mul]. exact eq_refl. Qed.

Lemma u_member f ts : p_member (S f) ts = pbind (p_primary f ts) (p_postfix f).
Proof. cbn [p_member]. exact eq_refl. Qed.

Lemma u_or_loop f acc ts : p_or_loop (S f) acc ts =
  match ts with
  | TOrOr :: ts1 => pbind (p_and f ts1) (fun t => p_or_loop f (t :: acc))
  | _ => POk (logic_tree $"_||_" (rev' acc)) ts
  end.
Proof. cbn [p_or_loop]. exact eq_refl. Qed.

Lemma u_and_loop f acc ts : p_and_loop (S f) acc ts =
  match ts with
  | TAndAnd :: ts1 => pbind (p_rel f ts1) (fun t => p_and_loop f (t :: acc))
  | _ => POk (logic_tree $"_&&_" (rev' acc)) ts
  end.
Proof. cbn [p_and_loop]. exact eq_refl. Qed.

(** one round of a left-associative operator loop: an operator named by [opn], an operand
    parsed by [sub], and the loop again *)
Definition binloop (opn : tk -> option str) (sub : list tk -> pres expr)
    (loop : expr -> list tk -> pres expr) (lhs : expr) (ts : list tk) : pres expr :=
  match ts with
  | op :: ts1 =>
      match opn op with
      | Some name => pbind (sub ts1) (fun r => loop (ECall name None [lhs; r]))
      | None => POk lhs ts
      end
  | [] => POk lhs ts
  end.

Lemma u_rel_loop f lhs ts : p_rel_loop (S f) lhs ts = binloop relop_name (p_add f) (p_rel_loop f) lhs ts.
Proof. cbn [p_rel_loop]. exact eq_refl. Qed.

Lemma u_add_loop f lhs ts : p_add_loop (S f) lhs ts = binloop addop_name (p_mul f) (p_add_loop f) lhs ts.
Proof. cbn [p_add_loop]. exact eq_refl. Qed.

Lemma u_mul_loop f lhs ts : p_mul_loop (S f) lhs ts = binloop mulop_name (p_unary f) (p_mul_loop f) lhs ts.
Proof. cbn [p_mul_loop]. exact eq_refl. Qed.

Definition prefix_run (P : tk -> bool) (nm : str) (f : nat) (ts : list tk) : pres expr :=
  let '(n, ts1) := count_prefix P ts in
  pbind (p_member f ts1) (fun m => POk (if Nat.odd n then ECall nm None [m] else m)).

Lemma count_prefix_repeat (P : tk -> bool) (t : tk) n ts :
  P t = true -> match ts with x :: _ => P x = false | [] => True end ->
  count_prefix P (repeat t n ++ ts) = (n, ts).
Proof.
  intros Ht Hts. induction n as [|n IH]; cbn [repeat app count_prefix].
  - destruct ts as [|x r]; [reflexivity|]. cbn [count_prefix]. now rewrite Hts.
  - now rewrite Ht, IH.
Qed.

Lemma prefix_run_repeat (P : tk -> bool) (t : tk) nm n f ts :
  P t = true -> match ts with x :: _ => P x = false | [] => True end ->
  prefix_run P nm f (repeat t n ++ ts) =
  pbind (p_member f ts) (fun m => POk (if Nat.odd n then ECall nm None [m] else m)).
Proof. intros Ht Hts. unfold prefix_run. now rewrite count_prefix_repeat. Qed.

Lemma u_unary f ts : p_unary (S f) ts =
  match ts with
  | TBang :: _ => prefix_run is_bang $"!_" f ts
  | TMinus :: ts0 => if is_number_tok ts0 then p_member f ts else prefix_run is_minus $"-_" f ts
  | _ => p_member f ts
  end.
Proof. cbn [p_unary]. exact eq_refl. Qed.

(** a run of minus signs is a prefix run unless it is the one sign of a number *)
Lemma u_unary_minus n f ts : (n = 0 -> is_number_tok ts = false) ->
  p_unary (S f) (repeat TMinus (S n) ++ ts) = prefix_run is_minus $"-_" f (repeat TMinus (S n) ++ ts).
Proof. intros H. rewrite u_unary. destruct n; cbn [repeat app]; [now rewrite H|reflexivity]. Qed.

Lemma mk_call_cases id t args ts :
  mk_call id t args ts = PFail \/ exists e, mk_call id t args ts = POk e ts.
Proof. unfold mk_call. destruct (expand_call id t args) as [e|]; [right; now exists e|now left]. Qed.

Definition mcall_item (f : nat) (e : expr) (id : str) (ts : list tk) : pres expr :=
  pbind (p_args f ts) (fun args ts2 => pbind (mk_call id (Some e) args ts2) (p_postfix f)).

Definition index_item (f : nat) (e : expr) (ts : list tk) : pres expr :=
  pbind (p_expr f ts) (fun i l =>
    match l with
    | TRBracket :: ts2 => p_postfix f (ECall $"_[_]" None [e; i]) ts2
    | _ => PFail
    end).

Lemma u_postfix f e ts : p_postfix (S f) e ts =
  match ts with
  | TDot :: TIdent id :: TLParen :: ts1 => mcall_item f e id ts1
  | TDot :: TIdent id :: ts1 => p_postfix f (ESelect e id false) ts1
  | TDot :: TEscIdent id :: ts1 => p_postfix f (ESelect e id false) ts1
  | TLBracket :: TQuestion :: _ => PFail
  | TLBracket :: ts1 => index_item f e ts1
  | _ => POk e ts
  end.
Proof. cbn [p_postfix]. exact eq_refl. Qed.

Lemma u_args f ts : p_args (S f) ts =
  match ts with TRParen :: ts1 => POk [] ts1 | _ => p_args_rest f [] ts end.
Proof. cbn [p_args]. exact eq_refl. Qed.

Lemma u_args_rest f acc ts : p_args_rest (S f) acc ts =
  pbind (p_expr f ts) (fun a l =>
    match l with
    | TComma :: ts1 => p_args_rest f (a :: acc) ts1
    | TRParen :: ts1 => POk (rev' (a :: acc)) ts1
    | _ => PFail
    end).
Proof. cbn [p_args_rest]. exact eq_refl. Qed.

Definition elems_item (f : nat) (acc : list expr) (ts : list tk) : pres (list expr) :=
  pbind (p_expr f ts) (fun a l =>
    match l with
    | TComma :: ts1 => p_elems f (a :: acc) ts1
    | TRBracket :: ts1 => POk (rev' (a :: acc)) ts1
    | _ => PFail
    end).

Lemma u_elems f acc ts : p_elems (S f) acc ts =
  match ts with
  | TRBracket :: ts1 => POk (rev' acc) ts1
  | TQuestion :: _ => PFail
  | _ => elems_item f acc ts
  end.
Proof. cbn [p_elems]. exact eq_refl. Qed.

Definition entries_item (f : nat) (acc : list (expr * expr)) (ts : list tk) : pres (list (expr * expr)) :=
  pbind (p_expr f ts) (fun k l =>
    match l with
    | TColon :: ts1 =>
        pbind (p_expr f ts1) (fun v l1 =>
          match l1 with
          | TComma :: ts2 => p_entries f ((k, v) :: acc) ts2
          | TRBrace :: ts2 => POk (rev' ((k, v) :: acc)) ts2
          | _ => PFail
          end)
    | _ => PFail
    end).

Lemma u_entries f acc ts : p_entries (S f) acc ts =
  match ts with
  | TRBrace :: ts1 => POk (rev' acc) ts1
  | TQuestion :: _ => PFail
  | _ => entries_item f acc ts
  end.
Proof. cbn [p_entries]. exact eq_refl. Qed.

Definition fields_item (f : nat) (n : str) (acc : list (str * expr)) (ts : list tk) : pres (list (str * expr)) :=
  pbind (p_expr f ts) (fun v l =>
    match l with
    | TComma :: ts2 => p_fields f ((n, v) :: acc) ts2
    | TRBrace :: ts2 => POk (rev' ((n, v) :: acc)) ts2
    | _ => PFail
    end).

Lemma u_fields f acc ts : p_fields (S f) acc ts =
  match ts with
  | TRBrace :: ts1 => POk (rev' acc) ts1
  | TQuestion :: _ => PFail
  | (TIdent n | TEscIdent n) :: TColon :: ts1 => fields_item f n acc ts1
  | _ => PFail
  end.
Proof. cbn [p_fields]. exact eq_refl. Qed.

Definition msg_lit (f : nat) (leading : bool) (names : list str) (ts : list tk) : pres expr :=
  pbind (p_fields f [] ts) (fun fs =>
    POk (EStruct (if leading then 46%N :: join_dots names else join_dots names) fs)).

Definition call_or_ident (f : nat) (leading : bool) (ts0 : list tk) : pres expr :=
  match ts0 with
  | TIdent id :: TLParen :: ts1 =>
      pbind (p_args f ts1) (mk_call (if leading then 46%N :: id else id) None)
  | TIdent id :: ts1 => POk (EIdent id) ts1
  | _ => PFail
  end.

(** the forms that begin with an identifier, after an optional leading dot *)
Definition ident_forms (f : nat) (leading : bool) (ts0 : list tk) : pres expr :=
  match msg_prefix (S (length ts0)) ts0 [] with
  | Some (names, TComma :: TRBrace :: ts2) =>
      let n := join_dots names in
      POk (EStruct (if leading then 46%N :: n else n) []) ts2
  | Some (names, ts1) => msg_lit f leading names ts1
  | None => call_or_ident f leading ts0
  end.

Definition paren_body (f : nat) (ts : list tk) : pres expr :=
  pbind (p_expr f ts) (fun e l => match l with TRParen :: ts2 => POk e ts2 | _ => PFail end).

Definition list_lit (f : nat) (ts : list tk) : pres expr :=
  pbind (p_elems f [] ts) (fun es => POk (EList es)).

Definition map_lit (f : nat) (ts : list tk) : pres expr :=
  pbind (p_entries f [] ts) (fun es => POk (EMap es)).

Definition lit_body (ts : list tk) : pres expr :=
  match literal_of ts with Some (e, r) => POk e r | None => PFail end.

Lemma u_primary f ts : p_primary (S f) ts =
  match ts with
  | TDot :: ts0 => ident_forms f true ts0
  | TIdent _ :: _ => ident_forms f false ts
  | TLParen :: ts1 => paren_body f ts1
  | TLBracket :: TComma :: TRBracket :: ts1 => POk (EList []) ts1
  | TLBracket :: ts1 => list_lit f ts1
  | TLBrace :: TComma :: TRBrace :: ts1 => POk (EMap []) ts1
  | TLBrace :: ts1 => map_lit f ts1
  | _ => lit_body ts
  end.
Proof. cbn [p_primary]. exact eq_refl. Qed.

(** What the side functions of the parser return, as the proofs about the parser use it. *)
Lemma count_prefix_spec (P : tk -> bool) ts :
  exists pre, ts = pre ++ snd (count_prefix P ts) /\ length pre = fst (count_prefix P ts) /\
              Forall (fun x => P x = true) pre.
Proof.
  induction ts as [|x ts (pre & E & L & F)]; cbn [count_prefix]; [exists []; auto|].
  destruct (P x) eqn:Px; [|exists []; cbn; auto].
  destruct (count_prefix P ts) as [n r]. cbn [fst snd] in *. exists (x :: pre). cbn [app length].
  split; [now rewrite <- E|]. split; [now rewrite L|now constructor].
Qed.
Lemma count_prefix_pos P t ts : P t = true -> exists k r, count_prefix P (t :: ts) = (S k, r).
Proof. intros Pt. cbn [count_prefix]. rewrite Pt. destruct (count_prefix P ts) as [k r]. eauto. Qed.
Lemma is_bang_eq x : is_bang x = true -> x = TBang. Proof. destruct x; now try discriminate. Qed.
Lemma is_minus_eq x : is_minus x = true -> x = TMinus. Proof. destruct x; now try discriminate. Qed.

Lemma msg_prefix_spec fuel : forall ts acc names r,
  msg_prefix fuel ts acc = Some (names, r) -> exists ids, ts = ids ++ TLBrace :: r /\ Gids ids.
Proof.
  induction fuel as [|fuel IHf]; intros ts acc names r; cbn [msg_prefix]; [discriminate|].
  destruct ts as [|t ts]; [discriminate|]. destruct t; try discriminate.
  destruct ts as [|t2 ts]; [discriminate|]. destruct t2; try discriminate.
  - intros [= <- <-]. exists [TIdent text]. split; [reflexivity|constructor].
  - intros H. apply IHf in H as (ids & -> & G). exists (TIdent text :: TDot :: ids). split; [reflexivity|now constructor].
Qed.

Lemma literal_of_spec ts e r : literal_of ts = Some (e, r) -> exists pre, ts = pre ++ r /\ Gliteral pre.
Proof.
  unfold literal_of. destruct ts as [|t ts]; [discriminate|].
  destruct t; try discriminate;
  try (match goal with |- context [option_map _ ?x] => destruct x; cbn [option_map]; try discriminate end);
  try (intros [= <- <-]; eexists [_]; split; [reflexivity|constructor]).
  destruct ts as [|t2 ts]; [discriminate|]. destruct t2; try discriminate;
  (match goal with |- context [option_map _ ?x] => destruct x; cbn [option_map]; try discriminate end);
  (intros [= <- <-]; eexists [_; _]; split; [reflexivity|constructor]).
Qed.
