(** The surface trees of macro calls ([ast] applies the expander at the call node): when such a
    tree is well formed. *)
From Coq Require Import String.
From Cel.Model Require Import Surface.

Definition macro2 (m : str) : Prop :=
  m = $"all" \/ m = $"exists" \/ m = $"exists_one" \/ m = $"existsOne" \/ m = $"filter" \/ m = $"map".

Lemma macro_wf a m x p q f : macro2 m ->
  (wf_st (SMCall a m [SId x; p]) <-> wf_st a /\ wf_st p) /\
  (wf_st (SMCall a $"map" [SId x; p; q]) <-> wf_st a /\ wf_st p /\ wf_st q) /\
  (wf_st (SCall $"has" [SSel a f]) <-> wf_st a).
Proof.
  intros Hm. split; [|split].
  - destruct Hm as [->|[->|[->|[->|[->| ->]]]]]; cbn; intuition.
  - cbn; intuition.
  - cbn; intuition.
Qed.

(** The iteration variable must be a plain name: any other first argument is refused. *)
Lemma macro_var_needed a m v p : macro2 m -> (forall x, ast v <> EIdent x) -> ~ wf_st (SMCall a m [v; p]).
Proof.
  intros Hm Hv [W _]. revert W. unfold call_ok, expand_call. cbn [map length].
  destruct Hm as [->|[->|[->|[->|[->| ->]]]]]; cbn; destruct (ast v) eqn:E; try discriminate; exfalso; eapply Hv; reflexivity.
Qed.
