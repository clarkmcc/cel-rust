(** C17: host data -> CEL values. *)
From Cel.Model Require Import Json.
From Cel.Proofs Require Import BaseFacts ValueFacts.
From Coq Require Import Lia.
Open Scope Z_scope.

(** Every loop of the converters maps an outcome-valued function over a list, stopping at the
    first failure, and folds the results into an accumulator: [mapM], then [fold_left]. *)
Fixpoint mapM {A B} (f : A -> outcome B) (l : list A) : outcome (list B) :=
  match l with
  | [] => Ok []
  | x :: l' => let! y := f x in let! ys := mapM f l' in Ok (y :: ys)
  end.

Lemma loop_mapM {A B S R} (f : A -> outcome B) (step : S -> B -> S) (fin : S -> R)
    (loop : list A -> S -> outcome R) :
  (forall s, loop [] s = Ok (fin s)) ->
  (forall x l s, loop (x :: l) s = let! y := f x in loop l (step s y)) ->
  forall l s, loop l s = omap (fun ys => fin (fold_left step ys s)) (mapM f l).
Proof.
  intros H0 H1. induction l as [|x l IH]; intros s; [now rewrite H0|].
  rewrite H1. cbn [mapM]. destruct (f x) as [y| |]; cbn [obind]; try reflexivity.
  rewrite IH. now destruct (mapM f l).
Qed.

Lemma rev_loop_mapM {A B R} (f : A -> outcome B) (fin : list B -> R) (loop : list A -> list B -> outcome R) :
  (forall acc, loop [] acc = Ok (fin (rev' acc))) ->
  (forall x l acc, loop (x :: l) acc = let! y := f x in loop l (y :: acc)) ->
  forall l, loop l [] = omap fin (mapM f l).
Proof.
  intros H0 H1 l. rewrite (loop_mapM f (fun acc y => y :: acc) (fun acc => fin (rev' acc)) loop H0 H1).
  unfold omap. destruct (mapM f l) as [ys| |]; cbn [obind]; try reflexivity. do 2 f_equal.
  change ys with (rev [] ++ ys) at 2. generalize (@nil B).
  induction ys as [|y ys IH]; intros acc; cbn [fold_left]; [now rewrite rev'_rev, app_nil_r|].
  rewrite IH. cbn [rev]. now rewrite <- app_assoc.
Qed.

Lemma mapM_ok {A B} (f : A -> outcome B) l ys : Forall2 (fun x y => f x = Ok y) l ys -> mapM f l = Ok ys.
Proof. induction 1 as [|x y l ys H _ IH]; cbn [mapM]; [reflexivity|]. now rewrite H, IH. Qed.

Lemma mapM_map {A A' B} (f : A' -> outcome B) (g : A -> A') l : mapM f (map g l) = mapM (fun x => f (g x)) l.
Proof. induction l as [|x l IH]; cbn [map mapM]; [reflexivity|]. now rewrite IH. Qed.

(** [f] never crashes, succeeds exactly on the arguments that are [ok], and then returns
    something [R]-related. *)
Definition decides {A B} (f : A -> outcome B) (R : A -> B -> Prop) (ok : A -> bool) (x : A) : Prop :=
  match f x with
  | Ok y => R x y /\ ok x = true
  | Err _ => ok x = false
  | Crash _ => False
  end.

Section Decides.
  Context {A B} {f : A -> outcome B} {R : A -> B -> Prop} {ok : A -> bool} {x : A} (D : decides f R ok x).

  Lemma decides_no_crash : match f x with Crash _ => False | _ => True end.
  Proof. unfold decides in D. now destruct (f x). Qed.

  Lemma decides_ok y : f x = Ok y -> R x y /\ ok x = true.
  Proof. unfold decides in D. intros E. now rewrite E in D. Qed.

  Lemma decides_true : ok x = true -> exists y, f x = Ok y.
  Proof. unfold decides in D. destruct (f x); [eauto|congruence|contradiction]. Qed.

  Lemma decides_false : ok x = false -> exists c, f x = Err c.
  Proof. unfold decides in D. destruct (f x); [destruct D; congruence|eauto|contradiction]. Qed.

  Lemma decides_omap {A' B'} (g : B -> B') {f' : A' -> outcome B'} {R' : A' -> B' -> Prop} {ok' : A' -> bool} {x' : A'} :
    f' x' = omap g (f x) -> ok' x' = ok x -> (forall y, R x y -> R' x' (g y)) -> decides f' R' ok' x'.
  Proof.
    unfold decides in *. intros -> -> H. destruct (f x); cbn [omap obind]; [|exact D..].
    split; [apply H|]; apply D.
  Qed.
End Decides.

Lemma decides_mapM {A B} (f : A -> outcome B) (R : A -> B -> Prop) (ok : A -> bool) l :
  Forall (decides f R ok) l -> decides (mapM f) (Forall2 R) (forallb ok) l.
Proof.
  unfold decides. induction 1 as [|x l Hx _ IH]; cbn [mapM forallb]; [split; [constructor|reflexivity]|].
  destruct (f x) as [y| |]; cbn [obind]; [|now rewrite Hx|exact Hx].
  destruct Hx as [Hx ->]. destruct (mapM f l) as [ys| |]; cbn [obind andb]; [|exact IH|exact IH].
  destruct IH as [IH ->]. split; [now constructor|reflexivity].
Qed.

Lemma decides_snd {K K' A B} (g : K -> K') (f : A -> outcome B) (R : A -> B -> Prop) (ok : A -> bool) (p : K * A) :
  decides f R ok (snd p) ->
  decides (fun p => omap (pair (g (fst p))) (f (snd p))) (fun p q => fst q = g (fst p) /\ R (snd p) (snd q))
    (fun p => match p with (_, x) => ok x end) p.
Proof.
  destruct p as [k x]. unfold decides. cbn [fst snd]. destruct (f x); cbn [omap obind fst snd]; tauto.
Qed.

Lemma Forall_chain {A B C} (f : A -> outcome B) (g : B -> outcome C) (R : A -> C -> Prop) (ok : A -> bool) l :
  Forall (fun x => ok x = true -> exists y z, f x = Ok y /\ g y = Ok z /\ R x z) l -> forallb ok l = true ->
  exists ys zs, Forall2 (fun x y => f x = Ok y) l ys /\ Forall2 (fun y z => g y = Ok z) ys zs /\ Forall2 R l zs.
Proof.
  induction 1 as [|x l Hx _ IH]; cbn [forallb]; intros Hok.
  - exists [], []. repeat split; constructor.
  - apply andb_prop in Hok as [H1 H2]. destruct (Hx H1) as (y & z & Hf & Hg & Hr).
    destruct (IH H2) as (ys & zs & Hfs & Hgs & Hrs). exists (y :: ys), (z :: zs). repeat split; now constructor.
Qed.

(** [to_value], [json_direct] and the predicates on host data treat Some and newtypes alike,
    the four kinds of sequence alike and the two kinds of struct alike, apart from the
    single-entry map a variant is wrapped in ([swrap]). *)
Inductive shape :=
| Leaf
| Inner (d : sdata)
| Items (l : list sdata)
| Entries (es : list (sdata * sdata))
| Fields (fs : list (str * sdata)).

Definition shape_of (d : sdata) : shape :=
  match d with
  | SSome d' | SNewtypeStruct d' | SNewtypeVariant _ d' => Inner d'
  | SSeq l | STuple l | STupleStruct l | STupleVariant _ l => Items l
  | SMap es => Entries es
  | SStruct fs | SStructVariant _ fs => Fields fs
  | _ => Leaf
  end.

Definition swrap (d : sdata) (v : value) : value :=
  match d with
  | SNewtypeVariant n _ | STupleVariant n _ | SStructVariant n _ => VMap [(KStr n, v)]
  | _ => v
  end.

Section SdataInd.
  Variable P : sdata -> Prop.
  Definition parts (s : shape) : Prop :=
    match s with
    | Leaf => True
    | Inner d' => P d'
    | Items l => Forall P l
    | Entries es => Forall (fun kx => P (snd kx)) es
    | Fields fs => Forall (fun nx => P (snd nx)) fs
    end.
  Hypothesis H : forall d, parts (shape_of d) -> P d.

  Fixpoint sdata_ind' (d : sdata) : P d :=
    let many := (fix go (l : list sdata) : Forall P l :=
                   match l with
                   | [] => Forall_nil _
                   | a :: l' => Forall_cons _ (sdata_ind' a) (go l')
                   end) in
    let fields := (fix go (l : list (str * sdata)) : Forall (fun nx => P (snd nx)) l :=
                     match l with
                     | [] => Forall_nil _
                     | (n, x) :: l' => Forall_cons (n, x) (sdata_ind' x) (go l')
                     end) in
    H d match d as d0 return parts (shape_of d0) with
        | SSome d' | SNewtypeStruct d' | SNewtypeVariant _ d' => sdata_ind' d'
        | SSeq l | STuple l | STupleStruct l | STupleVariant _ l => many l
        | SMap es => (fix go (l : list (sdata * sdata)) : Forall (fun kx => P (snd kx)) l :=
                        match l with
                        | [] => Forall_nil _
                        | (k, x) :: l' => Forall_cons (k, x) (sdata_ind' x) (go l')
                        end) es
        | SStruct fs | SStructVariant _ fs => fields fs
        | _ => I
        end.
End SdataInd.

Definition tv_field (nx : str * sdata) : outcome (key * value) :=
  omap (pair (KStr (fst nx))) (to_value (snd nx)).
Definition tv_entry (kx : sdata * sdata) : outcome (key * value) :=
  let! k := key_ser (fst kx) in omap (pair k) (to_value (snd kx)).

Definition set_all {B} (kvs : list (key * B)) (m0 : list (key * B)) : list (key * B) :=
  fold_left (fun m kv => assoc_set (fst kv) (snd kv) m) kvs m0.

Lemma tv_seq_mapM l : tv_seq l [] = mapM to_value l.
Proof.
  rewrite <- (omap_id (mapM to_value l)). apply (rev_loop_mapM to_value (fun vs => vs) tv_seq); [reflexivity|].
  intros x l' acc. cbn [tv_seq]. now destruct (to_value x).
Qed.
Lemma tv_fields_mapM fs m : tv_fields fs m = omap (fun kvs => set_all kvs m) (mapM tv_field fs).
Proof.
  apply (loop_mapM tv_field (fun m kv => assoc_set (fst kv) (snd kv) m) (fun m => m) tv_fields); [reflexivity|].
  intros [n x] l s. cbn [tv_fields]. unfold tv_field. cbn [fst snd]. now destruct (to_value x).
Qed.
Lemma tv_map_mapM es m : tv_map es m = omap (fun kvs => VMap (set_all kvs m)) (mapM tv_entry es).
Proof.
  apply (loop_mapM tv_entry (fun m kv => assoc_set (fst kv) (snd kv) m) VMap tv_map); [reflexivity|].
  intros [k x] l s. cbn [tv_map]. unfold tv_entry. cbn [fst snd].
  destruct (key_ser k); cbn [obind]; [|reflexivity..]. now destruct (to_value x).
Qed.

Lemma to_value_shape d :
  to_value d = match shape_of d with
               | Leaf => to_value d
               | Inner d' => omap (swrap d) (to_value d')
               | Items l => omap (fun vs => swrap d (VList vs)) (mapM to_value l)
               | Entries es => omap (fun kvs => VMap (set_all kvs [])) (mapM tv_entry es)
               | Fields fs => omap (fun kvs => swrap d (VMap (set_all kvs []))) (mapM tv_field fs)
               end.
Proof.
  destruct (shape_of d) as [|d'|l|es|fs] eqn:E; [reflexivity| | | |].
  - destruct d; try discriminate E; injection E as <-; cbn [to_value swrap]; [symmetry; apply omap_id..|reflexivity].
  - rewrite <- tv_seq_mapM. destruct d; try discriminate E; injection E as <-; reflexivity.
  - destruct d; try discriminate E. injection E as <-. apply tv_map_mapM.
  - transitivity (let! m := tv_fields fs [] in Ok (swrap d (VMap m))).
    + destruct d; try discriminate E; injection E as <-; reflexivity.
    + rewrite tv_fields_mapM. now destruct (mapM tv_field fs).
Qed.

Lemma supported_shape d :
  supported d = match shape_of d with
                | Leaf => supported d
                | Inner d' => supported d'
                | Items l => forallb supported l
                | Entries es => forallb (fun kx => match kx with (k, x) => key_okb k && supported x end) es
                | Fields fs => forallb (fun nx => match nx with (_, x) => supported x end) fs
                end.
Proof. now destruct d. Qed.

(** [Conv d v]: [v] is the CEL value of the same shape as [d].  Maps and structs are built by
    inserting the converted entries in order ([set_all]: a later equal key replaces). *)
Inductive Conv : sdata -> value -> Prop :=
| CBool b : Conv (SBool b) (VBool b)
| CInt z : Conv (SInt z) (VInt z)
| CUint z : Conv (SUint z) (VUInt z)
| CFloat f : Conv (SFloat f) (VDbl f)
| CChar c : Conv (SChar c) (VStr [c])
| CStr s : Conv (SStr s) (VStr s)
| CBytes b : Conv (SBytes b) (VBytes b)
| CNone : Conv SNone VNull
| CUnit : Conv SUnit VNull
| CUnitStruct : Conv SUnitStruct VNull
| CSome d v : Conv d v -> Conv (SSome d) v
| CUnitVariant n : Conv (SUnitVariant n) (VStr n)
| CNewtype d v : Conv d v -> Conv (SNewtypeStruct d) v
| CNewtypeVariant n d v : Conv d v -> Conv (SNewtypeVariant n d) (VMap [(KStr n, v)])
| CSeq l vs : Forall2 Conv l vs -> Conv (SSeq l) (VList vs)
| CTuple l vs : Forall2 Conv l vs -> Conv (STuple l) (VList vs)
| CTupleStruct l vs : Forall2 Conv l vs -> Conv (STupleStruct l) (VList vs)
| CTupleVariant n l vs : Forall2 Conv l vs -> Conv (STupleVariant n l) (VMap [(KStr n, VList vs)])
| CMap es kvs :
    Forall2 (fun kx kv => key_ser (fst kx) = Ok (fst kv) /\ Conv (snd kx) (snd kv)) es kvs ->
    Conv (SMap es) (VMap (set_all kvs []))
| CStruct fs kvs :
    Forall2 (fun nx kv => fst kv = KStr (fst nx) /\ Conv (snd nx) (snd kv)) fs kvs ->
    Conv (SStruct fs) (VMap (set_all kvs []))
| CStructVariant n fs kvs :
    Forall2 (fun nx kv => fst kv = KStr (fst nx) /\ Conv (snd nx) (snd kv)) fs kvs ->
    Conv (SStructVariant n fs) (VMap [(KStr n, VMap (set_all kvs []))])
| CDuration ns : Conv (SDuration ns) (VDur ns)
| CTimestamp ns off ns' off' :
    (* the wrapper travels as text with the offset written to the minute *)
    off' = (if off <? 0 then -1 else 1) * ((Z.abs off + 30) / 60 * 60) ->
    ns' + off' * 1000000000 = ns + off * 1000000000 ->
    Conv (STimestamp ns off) (VTs ns' off').

Lemma Conv_shape d :
  match shape_of d with
  | Leaf => True
  | Inner d' => forall v, Conv d' v -> Conv d (swrap d v)
  | Items l => forall vs, Forall2 Conv l vs -> Conv d (swrap d (VList vs))
  | Entries es => forall kvs,
      Forall2 (fun kx kv => key_ser (fst kx) = Ok (fst kv) /\ Conv (snd kx) (snd kv)) es kvs ->
      Conv d (VMap (set_all kvs []))
  | Fields fs => forall kvs,
      Forall2 (fun nx kv => fst kv = KStr (fst nx) /\ Conv (snd nx) (snd kv)) fs kvs ->
      Conv d (swrap d (VMap (set_all kvs [])))
  end.
Proof. destruct d; cbn [shape_of swrap]; intros; now constructor. Qed.

Lemma key_ser_spec d : decides key_ser (fun _ _ => True) key_okb d.
Proof. unfold decides. induction d; cbn [key_ser key_okb]; auto. Qed.

Lemma tv_entry_spec kx : decides to_value Conv supported (snd kx) ->
  decides tv_entry (fun kx kv => key_ser (fst kx) = Ok (fst kv) /\ Conv (snd kx) (snd kv))
    (fun kx => match kx with (k, x) => key_okb k && supported x end) kx.
Proof.
  destruct kx as [k x]. pose proof (key_ser_spec k) as K. unfold decides, tv_entry in *. cbn [fst snd].
  destruct (key_ser k); cbn [obind]; [destruct K as [_ ->]|now rewrite K|destruct K].
  destruct (to_value x); cbn [omap obind fst snd andb]; tauto.
Qed.

Theorem to_value_spec d : decides to_value Conv supported d.
Proof.
  revert d. apply sdata_ind'. intros d IH.
  pose proof (to_value_shape d) as T. pose proof (supported_shape d) as S. pose proof (Conv_shape d) as C.
  destruct (shape_of d) as [|d'|l|es|fs] eqn:E.
  - clear T S. unfold decides.
    destruct d; try discriminate E; cbn [to_value supported]; try (split; [constructor|reflexivity]);
      try reflexivity.
    (* [supported] tests the offset with [<? 1440] (minutes in a day), [ts_wrapper] with [1440 <=?] *)
    unfold ts_wrapper. cbv zeta. rewrite (Z.ltb_antisym 1440). destruct (1440 <=? _); [reflexivity|].
    split; [apply CTimestamp; destruct (off <? 0); lia|reflexivity].
  - exact (decides_omap IH _ T S C).
  - exact (decides_omap (decides_mapM _ _ _ _ IH) _ T S C).
  - exact (decides_omap (decides_mapM _ _ _ _ (Forall_impl _ tv_entry_spec IH)) _ T S C).
  - exact (decides_omap (decides_mapM tv_field _ _ _ (Forall_impl _ (decides_snd KStr to_value Conv supported) IH)) _ T S C).
Qed.

Lemma set_all_cons {B} k (v : B) kvs m : set_all ((k, v) :: kvs) m = set_all kvs (assoc_set k v m).
Proof. reflexivity. Qed.

Lemma set_all_app {B} (a b : list (key * B)) m : set_all (a ++ b) m = set_all b (set_all a m).
Proof. unfold set_all. now rewrite fold_left_app. Qed.

Lemma assoc_get_set_all {B} k (kvs : list (key * B)) : forall m,
  assoc_get k (set_all kvs m) =
  match assoc_get k (rev kvs) with Some v => Some v | None => assoc_get k m end.
Proof.
  induction kvs as [|[k2 v2] kvs IH]; intros m; [reflexivity|].
  rewrite set_all_cons, IH. cbn [rev]. rewrite assoc_get_app, assoc_get_set. cbn [assoc_get].
  destruct (assoc_get k (rev kvs)); [reflexivity|]. now destruct (key_eqb k k2).
Qed.

(** What [set_all] builds from nothing: a map with distinct keys, those of the list, in which the
    last binding of a key wins. *)
Theorem set_all_semantics {B} (kvs : list (key * B)) :
  NoDup (map fst (set_all kvs [])) /\
  (forall k, assoc_get k (set_all kvs []) = assoc_get k (rev kvs)) /\
  (forall k, In k (map fst (set_all kvs [])) <-> In k (map fst kvs)).
Proof.
  split; [|split].
  - assert (G : forall m : list (key * B), NoDup (map fst m) -> NoDup (map fst (set_all kvs m))).
    { induction kvs as [|[k v] kvs IH]; intros m H; [exact H|]. apply IH. now apply assoc_set_nodup. }
    apply G. constructor.
  - intros k. rewrite assoc_get_set_all. now destruct (assoc_get k (rev kvs)).
  - intros k.
    assert (G : forall m : list (key * B), In k (map fst (set_all kvs m)) <-> In k (map fst kvs) \/ In k (map fst m)).
    { induction kvs as [|[k2 v2] kvs IH]; intros m; [cbn; intuition|].
      rewrite set_all_cons, IH, assoc_set_keys. cbn [map fst In]. intuition. }
    rewrite G. cbn. intuition.
Qed.

(** With distinct keys the fold builds the list itself, for every insertion that appends a fresh
    key ([assoc_set] here, [jobj_set] for JSON objects). *)
Lemma fold_set_distinct {K V} (set : K -> V -> list (K * V) -> list (K * V)) :
  (forall k v m, ~ In k (map fst m) -> set k v m = m ++ [(k, v)]) ->
  forall kvs acc, NoDup (map fst acc ++ map fst kvs) ->
  fold_left (fun m kv => set (fst kv) (snd kv) m) kvs acc = acc ++ kvs.
Proof.
  intros Hfresh. induction kvs as [|[k v] kvs IH]; intros acc H; cbn [fold_left fst snd]; [now rewrite app_nil_r|].
  rewrite Hfresh, IH.
  - now rewrite <- app_assoc.
  - rewrite map_app, <- app_assoc. exact H.
  - intros Hin. apply (NoDup_remove_2 _ _ _ H). apply in_or_app. now left.
Qed.

Lemma set_all_distinct {B} (kvs : list (key * B)) acc :
  NoDup (map fst acc ++ map fst kvs) -> set_all kvs acc = acc ++ kvs.
Proof. apply (fold_set_distinct assoc_set), assoc_set_fresh. Qed.
