(** C02: evaluation never crashes (the model's [Crash] outcome: a panic of the real code). *)
From Cel.Model Require Import Eval.
From Cel.Proofs Require Import BaseFacts EvalBase.

Definition nocrash {A} (o : outcome A) : Prop := forall s, o <> Crash s.

Lemma nocrash_ok {A} (a : A) : nocrash (Ok a). Proof. intros s; discriminate. Qed.
Lemma nocrash_err {A} c : @nocrash A (Err c). Proof. intros s; discriminate. Qed.

Lemma nocrash_good {A} (o : outcome A) : nocrash o <-> good (fun _ => True) (fun _ => False) o.
Proof.
  split; [|intros H s ->; exact H]. destruct o as [a|c|s]; [exact (fun _ => I)..|].
  intros H. exact (H s eq_refl).
Qed.

Lemma tame_nocrash {A} (o : outcome A) : tame o -> nocrash o.
Proof. intros H. apply nocrash_good. revert H. apply good_weaken; auto. Qed.

Lemma if_tame {A} (b : bool) (x y : outcome A) : tame x -> tame y -> tame (if b then x else y).
Proof. now destruct b. Qed.

Lemma option_tame {A B} (o : option A) (k : A -> outcome B) (e : outcome B) :
  (forall a, tame (k a)) -> tame e -> tame (match o with Some a => k a | None => e end).
Proof. destruct o; auto. Qed.

Lemma chk_tame z : tame (chk_i64 z) /\ tame (chk_u64 z) /\ tame (chk_dur z) /\
                   forall o, tame (chk_ts z o).
Proof. unfold chk_i64, chk_u64, chk_dur, chk_ts. repeat split; intros; now apply if_tame. Qed.

(** Each operation is a table over both operands that ends in a catch-all error.  A first operand
    that heads no row of the table falls to the catch-all whatever the second is, so [destruct a]
    settles those cases ([exact I]) and [destruct b] is needed only under the others. *)
Lemma arith_tame a b :
  tame (v_add a b) /\ tame (v_sub a b) /\ tame (v_mul a b) /\ tame (v_div a b) /\ tame (v_rem a b).
Proof.
  repeat split; destruct a; try exact I; destruct b; try exact I;
    cbn [v_add v_sub v_mul v_div v_rem]; repeat apply if_tame; try exact I; apply chk_tame.
Qed.

Lemma rel_tame a b : tame (v_lt a b) /\ tame (v_le a b) /\ tame (v_gt a b) /\ tame (v_ge a b).
Proof. unfold v_lt, v_le, v_gt, v_ge. now destruct (v_cmp a b). Qed.

Lemma neg_tame a : tame (v_neg a).
Proof. destruct a; try exact I. apply chk_tame. Qed.

Lemma index_tame a b : tame (v_index a b).
Proof.
  destruct a; try exact I; destruct b; try exact I; cbn [v_index];
    first [now apply if_tame|now apply option_tame].
Qed.

Lemma in_tame a b : tame (v_in a b).
Proof. destruct a, b; try exact I; cbn [v_in]; now apply option_tame. Qed.

Lemma strict_binop_tame o a b : o <> BOr -> o <> BAnd -> tame (strict_binop o a b).
Proof.
  intros H1 H2. destruct o; cbn [strict_binop]; try congruence; try exact I;
    try apply arith_tame; try apply rel_tame; [apply in_tame|apply index_tame].
Qed.

Lemma unop_tame o v : tame (v_unop o v).
Proof. destruct o; cbn [v_unop]; [exact I|apply neg_tame|now destruct v]. Qed.

Lemma member_tame c v f : tame (member c v f).
Proof. unfold member. apply option_tame; [exact (fun _ => I)|now apply if_tame]. Qed.

Lemma fold_pick_tame k l : forall acc, tame (fold_pick k acc l).
Proof. induction l as [|x l IH]; intros acc; [exact I|]. cbn [fold_pick]. now apply option_tame. Qed.

Lemma pick_tame k args : tame (v_pick k args).
Proof.
  unfold v_pick, pick_list.
  destruct args as [|a [|b r]]; [exact I| |destruct a; apply fold_pick_tame].
  destruct a; try exact I. destruct l; [exact I|apply fold_pick_tame].
Qed.

Lemma b_size_tame v : tame (b_size v).
Proof. now destruct v. Qed.
Lemma b_contains_tame v a : tame (b_contains v a).
Proof. destruct v; try exact I; cbn [b_contains];
    first [now apply option_tame|now destruct a]. Qed.
Lemma b_string_tame v : tame (b_string v).
Proof. destruct v; try exact I. now apply option_tame. Qed.
Lemma b_int_tame v : tame (b_int v).
Proof.
  destruct v; try exact I; cbn [b_int]; try apply option_tame; intros; try apply if_tame; exact I.
Qed.
Lemma b_uint_tame v : tame (b_uint v).
Proof.
  destruct v; try exact I; cbn [b_uint]; try apply option_tame; intros; try apply if_tame; exact I.
Qed.
Lemma b_double_tame v : tame (b_double v).
Proof. destruct v; try exact I. now apply option_tame. Qed.

Lemma run_host_tame h xs : tame (run_host h xs).
Proof.
  destruct h; try exact I. destruct xs as [|x xs]; [exact I|]. cbn [run_host].
  apply (fold_left_invariant (@tame value)); [|exact I].
  intros [a|c|s] y H; [apply arith_tame|exact H..].
Qed.

(** The parameter list each built-in's body is written for; the default context registers every
    built-in with it ([default_ctx_wf]). *)
Definition builtin_params (b : builtin) : list extractor :=
  match b with
  | FContains => [XThis TyValue; XArg TyValue]
  | FSize | FString | FDouble | FInt | FUint => [XThis TyValue]
  | FMax | FMin => [XArgs]
  | FStartsWith | FEndsWith | FMatches => [XThis TyStr; XArg TyStr]
  | FBytes | FDuration | FTimestamp => [XArg TyStr]
  | _ => [XThis TyTs]
  end.

Definition fdef_ok (d : fdef) : Prop :=
  match body d with
  | FBuiltin b => params d = builtin_params b
  | FHost _ => True
  end.

Definition wf_ctx (c : ctx) : Prop := Forall (fun nd => fdef_ok (snd nd)) (funs c).

Lemma default_ctx_wf : wf_ctx default_ctx.
Proof. unfold wf_ctx, default_ctx, default_funs; cbn [funs]. repeat constructor. Qed.

Lemma wf_define c x v : wf_ctx c -> wf_ctx (define c x v).
Proof. exact (fun H => H). Qed.
Lemma wf_push c : wf_ctx c -> wf_ctx (push c).
Proof. exact (fun H => H). Qed.
Lemma wf_add_host c f ps h : wf_ctx c -> wf_ctx (add_function c f {| params := ps; body := FHost h |}).
Proof. intros H. constructor; [exact I|exact H]. Qed.

Lemma get_function_ok c f d : wf_ctx c -> get_function c f = Some d -> fdef_ok d.
Proof. apply get_function_Forall. Qed.

(** A built-in's body crashes only on arguments its extractors cannot have produced. *)
Lemma run_builtin_good b xs :
  good ordinary (fun _ => ~ shapes (builtin_params b) xs) (run_builtin b xs).
Proof.
  (* by the number of arguments, then by their constructors: where a pattern of [run_builtin]
     does not match, [shapes] fails at the same argument *)
  destruct b; cbn [builtin_params]; destruct xs as [|x1 [|x2 [|x3 xs]]];
    cbn [run_builtin shapes good]; try tauto;
    try (apply (tame_good _ _ (fun _ H => H));
         auto using b_size_tame, b_contains_tame, b_string_tame, b_int_tame, b_uint_tame,
           b_double_tame; fail).
  all: destruct x1; cbn [good shape has_vty]; try tauto; try (intros [[=] _]; fail);
    try apply (tame_good _ _ (fun _ H => H)), pick_tame.
  all: try (destruct x2; cbn [good shape has_vty]; try tauto; try (intros [_ [[=] _]]; fail)).
  - now destruct (forallb is_word_char _).
  - now destruct (parse_duration _).
  - now destruct (parse_rfc3339 _) as [[[]|]|].
Qed.

(** Calls, for any kind of outcome that contains the tame ones: "no crash" here, "no undeclared
    reference other than a missing name" in RefsComplete.  A builtin applied to arguments of the
    wrong shape crashes, which only a well-formed registry rules out; RefsComplete says nothing of
    crashes and has no such registry, so it takes the second disjunct, [forall s, Pc s]. *)
Section Calls.
  Variables (Pe : errclass -> Prop) (Pc : N -> Prop).
  Hypothesis Pe_ordinary : forall c, ordinary c -> Pe c.
  Let gd (r : result) : Prop := good Pe Pc (fst r).

  Lemma call_fn_good name d this rs es log0 : fdef_ok d \/ (forall s, Pc s) ->
    Forall gd rs -> gd (call_fn name d this rs es log0).
  Proof.
    intros Hd Hrs. unfold call_fn.
    pose proof (extract_good Pe Pc (params d) this rs es 0 [] log0
                  (Pe_ordinary EArgCount I) (Pe_ordinary EInvalid I) Hrs) as He.
    destruct (extract (params d) this rs es 0 [] log0) as [[xs|c|s] l] eqn:E; [|exact He..].
    destruct (body d) as [b|h] eqn:Eb; [|apply (tame_good _ _ Pe_ordinary), run_host_tame].
    eapply good_weaken; [exact Pe_ordinary| |apply run_builtin_good].
    intros s Hs. destruct Hd as [Hd|Hd]; [|apply Hd]. destruct Hs.
    unfold fdef_ok in Hd. rewrite Eb in Hd. rewrite <- Hd.
    now destruct (extract_shape _ _ _ _ _ _ _ _ _ E) as (ys & -> & F).
  Qed.

  Lemma call_dispatch_good c f rt rs args : wf_ctx c \/ (forall s, Pc s) ->
    (get_function c f = None -> Pe (EUndeclared f)) ->
    match rt with Some r => gd r | None => True end ->
    Forall gd rs -> gd (call_dispatch c f rt rs args).
  Proof.
    intros Hc Hf Ht Hrs. apply call_dispatch_cases.
    - unfold call_general. destruct (get_function c f) as [d|] eqn:E; [|exact (Hf eq_refl)].
      assert (Hd : fdef_ok d \/ forall s, Pc s)
        by (destruct Hc as [Hc|Hc]; [left; exact (get_function_ok c f d Hc E)|now right]).
      destruct rt as [[[tv|x|s] lt]|]; [now apply call_fn_good|exact Ht..|now apply call_fn_good].
    - intros o ra -> _. apply rbind_good; [exact (Forall_inv Hrs)|].
      intros v. apply (tame_good _ _ Pe_ordinary), unop_tame.
    - intros rl rr -> _. apply rbind_good; [exact (Forall_inv Hrs)|].
      intros l. destruct (to_bool l); [exact I|exact (Forall_inv (Forall_inv_tail Hrs))].
    - intros rl rr -> _. apply rbind_good; [exact (Forall_inv Hrs)|].
      intros l. destruct (to_bool l); [|exact I].
      apply rbind_good; [exact (Forall_inv (Forall_inv_tail Hrs))|]. intros r. exact I.
    - intros o rl rr -> _ H1 H2. apply rbind_good; [exact (Forall_inv Hrs)|]. intros l.
      apply rbind_good; [exact (Forall_inv (Forall_inv_tail Hrs))|].
      intros r. now apply (tame_good _ _ Pe_ordinary), strict_binop_tame.
    - intros rc rx ry -> _. apply rbind_good; [exact (Forall_inv Hrs)|]. intros vc.
      destruct (to_bool vc);
        [exact (Forall_inv (Forall_inv_tail Hrs))
        |exact (Forall_inv (Forall_inv_tail (Forall_inv_tail Hrs)))].
  Qed.
End Calls.

Fixpoint no_unspec (e : expr) : Prop :=
  match e with
  | EUnspec => False
  | ELit _ | EIdent _ => True
  | ECall _ t args =>
      match t with Some t' => no_unspec t' | None => True end /\
      (fix go (l : list expr) : Prop := match l with [] => True | a :: l' => no_unspec a /\ go l' end) args
  | ESelect o _ _ => no_unspec o
  | EList es => (fix go (l : list expr) : Prop := match l with [] => True | a :: l' => no_unspec a /\ go l' end) es
  | EMap es => (fix go (l : list (expr * expr)) : Prop :=
                  match l with [] => True | (k, v) :: l' => no_unspec k /\ no_unspec v /\ go l' end) es
  | EStruct _ fs => (fix go (l : list (str * expr)) : Prop :=
                       match l with [] => True | (_, v) :: l' => no_unspec v /\ go l' end) fs
  | EComp r _ _ i c s res => no_unspec r /\ no_unspec i /\ no_unspec c /\ no_unspec s /\ no_unspec res
  end.

Theorem eval_nocrash e : forall c, wf_ctx c -> no_unspec e -> nocrash (fst (eval c e)).
Proof.
  intros c Hw Hn. apply nocrash_good. revert c Hw Hn.
  induction e using expr_ind'; intros c Hw Hn; cbn [no_unspec] in Hn.
  - destruct Hn.
  - exact I.
  - rewrite eval_ident. cbn [fst]. unfold lookup. now destruct (lookup_scopes x (scopes c)).
  - rewrite eval_call. destruct Hn as [Ht Ha]. apply all_go in Ha.
    apply call_dispatch_good; [exact (fun _ _ => I)|now left|exact (fun _ => I)| |].
    + destruct target as [t|]; [now apply (H t)|exact I].
    + apply Forall_map. rewrite Forall_forall in *. auto.
  - rewrite eval_select. apply rbind_good; [now apply IHe|].
    intros v. destruct t; [exact I|]. apply (tame_good _ _ (fun _ _ => I)), member_tame.
  - rewrite eval_list. apply all_go in Hn. apply list_go_good. rewrite Forall_forall in *. auto.
  - rewrite eval_map. apply all_go2 in Hn. apply map_go_good; [exact I|].
    rewrite Forall_forall in *. intros kv Hkv. destruct (H kv Hkv), (Hn kv Hkv). auto.
  - exact I.
  - rewrite eval_comp. destruct Hn as (N1 & N2 & N3 & N4 & N5).
    apply rbind_good; [now apply IHe2|]. intros vi.
    apply rbind_good; [now apply IHe1|]. intros vr.
    destruct (range_items vr) as [items|]; [|exact I].
    apply (comp_loop_good _ _ wf_ctx); auto.
Qed.
