(** C16: the calendar conversions invert each other (by arithmetic on Hinnant's formulas, for
    every integer); the calendar fields of a timestamp. *)
From Cel.Model Require Import Timestamp.
From Coq Require Import Lia.
(* [lia] with / and mod: the setting holds in every file that loads this one, and DayOfYear.v,
   TimestampRoundtrip.v and Properties/C16.v rely on it *)
Ltac Zify.zify_post_hook ::= Z.div_mod_to_equations.
Open Scope Z_scope.

(** A day number, counted from 0000-03-01, is [era * 146097 + doe]; the 400 years of an era are
    counted from March 1st, so that the leap day is the last day of its year: year [yoe] starts
    at day [365 * yoe + yoe / 4 - yoe / 100] of the era and has 366 days exactly when the year
    that follows it is a leap year of the calendar. *)
Definition ends_leap (yoe : Z) : Prop :=
  (yoe + 1) mod 4 = 0 /\ ((yoe + 1) mod 100 <> 0 \/ yoe = 399).

Definition in_year (yoe doy : Z) : Prop :=
  0 <= yoe <= 399 /\ 0 <= doy /\ (doy <= 364 \/ doy = 365 /\ ends_leap yoe).

(** The year-of-era formula of [civil_from_days] finds the year a day of the era lies in ... *)
Lemma doe_split doe : 0 <= doe <= 146096 ->
  let yoe := (doe - doe / 1460 + doe / 36524 - doe / 146096) / 365 in
  in_year yoe (doe - (365 * yoe + yoe / 4 - yoe / 100)).
Proof. unfold in_year, ends_leap. lia. Qed.

(** ... and every day of every year of the era is found that way. *)
Lemma doe_join yoe doy : in_year yoe doy ->
  let doe := 365 * yoe + yoe / 4 - yoe / 100 + doy in
  0 <= doe <= 146096 /\ (doe - doe / 1460 + doe / 36524 - doe / 146096) / 365 = yoe.
Proof. unfold in_year, ends_leap. lia. Qed.

(** So [civil_from_days] reads day [doy] of year [yoe] of an era back as that year, with the month
    and the day of the month that [doy] falls on. *)
Lemma civil_of_march era yoe doy : in_year yoe doy ->
  civil_from_days (era * 146097 + (365 * yoe + yoe / 4 - yoe / 100 + doy) - 719468) =
  let mp := (5 * doy + 2) / 153 in
  let m := if mp <? 10 then mp + 3 else mp - 9 in
  (if m <=? 2 then yoe + era * 400 + 1 else yoe + era * 400, m, doy - (153 * mp + 2) / 5 + 1).
Proof.
  intros Hin. destruct (doe_join yoe doy Hin) as [Hdoe Eyoe]. cbv zeta in *.
  assert (Ee : (era * 146097 + (365 * yoe + yoe / 4 - yoe / 100 + doy)) / 146097 = era) by lia.
  unfold civil_from_days. now rewrite Z.sub_add, Ee, Z.add_simpl_l, Eyoe, Z.add_simpl_l.
Qed.

(** Month [mp] of a March-based year (0 = March .. 11 = February) starts at day
    [(153 * mp + 2) / 5] of it, so the months before February have these lengths: *)
Lemma month_len y m : 1 <= m <= 12 -> m <> 2 ->
  days_in_month y m = let mp := if 2 <? m then m - 3 else m + 9 in
                      (153 * (mp + 1) + 2) / 5 - (153 * mp + 2) / 5.
Proof.
  intros Hm H2.
  assert (M : m = 1 \/ m = 3 \/ m = 4 \/ m = 5 \/ m = 6 \/ m = 7 \/ m = 8 \/ m = 9 \/ m = 10 \/
              m = 11 \/ m = 12) by lia.
  repeat (destruct M as [->|M]); try subst m; reflexivity.
Qed.

Lemma leap_ends_leap era yoe : 0 <= yoe <= 399 ->
  is_leap (yoe + era * 400 + 1) = true <-> ends_leap yoe.
Proof. unfold is_leap, ends_leap. lia. Qed.

Lemma valid_bounds y m d : valid_date y m d = true -> 1 <= m <= 12 /\ 1 <= d <= 31.
Proof.
  unfold valid_date, days_in_month. destruct (m =? 2); [destruct (is_leap y)|destruct (_ || _)]; lia.
Qed.

Theorem civil_roundtrip_days n :
  let '(y, m, d) := civil_from_days n in days_from_civil y m d = n /\ valid_date y m d = true.
Proof.
  pose (era := (n + 719468) / 146097). pose (doe := n + 719468 - era * 146097).
  pose proof (doe_split doe ltac:(subst doe era; lia)) as Hin. cbv zeta in Hin.
  set (yoe := _ / 365) in Hin. set (doy := doe - _) in Hin.
  replace n with (era * 146097 + (365 * yoe + yoe / 4 - yoe / 100 + doy) - 719468) by (subst doy doe; ring).
  rewrite (civil_of_march era yoe doy Hin). cbv zeta.
  destruct Hin as (Hy & H0 & H1). pose proof (leap_ends_leap era yoe Hy) as Hl.
  unfold ends_leap in *. clearbody yoe doy era. clear doe. set (mp := (5 * doy + 2) / 153).
  assert (Hmp : 0 <= mp <= 11) by (subst mp; lia).
  unfold days_from_civil, valid_date.
  destruct (mp <? 10) eqn:E.
  - replace (mp + 3 <=? 2) with false by lia. replace (2 <? mp + 3) with true by lia.
    split; [subst mp; lia|].
    rewrite month_len by lia. replace (2 <? mp + 3) with true by lia. cbv zeta. subst mp; lia.
  - replace (mp - 9 <=? 2) with true by lia. replace (2 <? mp - 9) with false by lia.
    split; [subst mp; lia|].
    assert (mp = 10 \/ mp = 11) as [M|M] by lia.
    + rewrite month_len by lia. replace (2 <? mp - 9) with false by lia. cbv zeta. subst mp; lia.
    + unfold days_in_month. rewrite M in *. change (11 - 9 =? 2) with true. cbv iota.
      destruct (is_leap (yoe + era * 400 + 1)); lia.
Qed.

Theorem civil_roundtrip_date y m d : valid_date y m d = true ->
  civil_from_days (days_from_civil y m d) = (y, m, d).
Proof.
  intros Hv. pose proof (valid_bounds y m d Hv) as [Hm _].
  unfold valid_date in Hv. unfold days_from_civil.
  set (y' := if m <=? 2 then y - 1 else y). set (era := y' / 400). set (yoe := y' - era * 400).
  set (mp := if 2 <? m then m - 3 else m + 9). set (doy := (153 * mp + 2) / 5 + d - 1).
  assert (Hy : y = yoe + era * 400 + (if m <=? 2 then 1 else 0)) by (subst yoe y'; destruct (m <=? 2); lia).
  assert (Hyoe : 0 <= yoe <= 399) by (subst yoe era; lia).
  assert (Hmp : 0 <= mp <= 11 /\ m = if mp <? 10 then mp + 3 else mp - 9) by (subst mp; destruct (2 <? m) eqn:E;
      [replace (m - 3 <? 10) with true by lia|replace (m + 9 <? 10) with false by lia]; lia).
  assert (Hin : in_year yoe doy /\ (5 * doy + 2) / 153 = mp /\ doy - (153 * mp + 2) / 5 + 1 = d).
  { pose proof (leap_ends_leap era yoe Hyoe) as Hl. unfold in_year, ends_leap in *.
    destruct (Z.eq_dec m 2) as [->|H2].
    - unfold days_in_month in Hv. change (2 =? 2) with true in Hv. cbv iota in Hv.
      replace y with (yoe + era * 400 + 1) in Hv by lia.
      subst doy mp. cbn [Z.ltb Z.compare Pos.compare Pos.compare_cont] in *.
      destruct (is_leap (yoe + era * 400 + 1)); lia.
    - rewrite (month_len y m Hm H2) in Hv. cbv zeta in Hv. fold mp in Hv.
      assert (mp <= 10) by (subst mp; destruct (2 <? m) eqn:E; lia). subst doy. lia. }
  destruct Hin as (Hin & Emp & Ed).
  rewrite (Z.mul_comm yoe 365), (civil_of_march era yoe doy Hin). cbv zeta.
  rewrite Emp, Ed. destruct Hmp as [_ <-]. rewrite Hy. destruct (m <=? 2); do 2 f_equal; lia.
Qed.

(** The calendar fields of a timestamp are those of the local time at its own offset: they
    form a valid date whose day number is the local day, and the time-of-day fields are in
    range. *)
Lemma fields_spec ns off :
  let f := local_fields ns off in
  let local := ns + off * ns_per_s in
  days_from_civil (f_year f) (f_month f) (f_day f) = local / ns_per_s / 86400 /\
  valid_date (f_year f) (f_month f) (f_day f) = true /\
  0 <= f_hour f <= 23 /\ 0 <= f_min f <= 59 /\ 0 <= f_sec f <= 59 /\ 0 <= f_nanos f < ns_per_s /\
  ((f_days f * 86400 + f_hour f * 3600 + f_min f * 60 + f_sec f) * ns_per_s + f_nanos f = local).
Proof.
  unfold local_fields, ns_per_s.
  set (local := ns + off * 1000000000). set (secs := local / 1000000000). set (days := secs / 86400).
  pose proof (civil_roundtrip_days days) as H.
  destruct (civil_from_days days) as [[y m] d]. cbn [f_year f_month f_day f_days f_hour f_min f_sec f_nanos].
  destruct H as [H1 H2]. split; [exact H1|split; [exact H2|]].
  unfold days, secs. repeat split; lia.
Qed.

Lemma accessor_origins ns off :
  0 <= access AMonth ns off <= 11 /\ 1 <= access ADate ns off <= 31 /\
  access ADayOfMonth ns off = access ADate ns off - 1 /\
  0 <= access ADayOfWeek ns off <= 6 /\ 0 <= access AHours ns off <= 23 /\
  0 <= access AMinutes ns off <= 59 /\ 0 <= access ASeconds ns off <= 59 /\
  0 <= access AMillis ns off <= 999.
Proof.
  pose proof (fields_spec ns off) as H. cbv zeta in H.
  destruct H as (H1 & H2 & H3 & H4 & H5 & H6 & H7).
  destruct (valid_bounds _ _ _ H2) as [Hm Hd].
  unfold access. unfold ns_per_s in *. repeat split; lia.
Qed.
