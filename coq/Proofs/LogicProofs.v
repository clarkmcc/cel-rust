(** C06: the logical operators and the conditional evaluate only what they need. *)
From Coq Require Import String.
From Cel.Model Require Import Eval.
From Cel.Proofs Require Import EvalBase.

Definition e_and (a b : expr) : expr := ECall $"_&&_" None [a; b].
Definition e_or (a b : expr) : expr := ECall $"_||_" None [a; b].
Definition e_cond (c x y : expr) : expr := ECall $"_?_:_" None [c; x; y].

Lemma eval_and c a b :
  eval c (e_and a b) =
  rbind (eval c a) (fun l => if to_bool l
                             then rbind (eval c b) (fun r => ret (Ok (VBool (to_bool r))))
                             else ret (Ok (VBool false))).
Proof. unfold e_and. rewrite eval_call. reflexivity. Qed.

Lemma eval_or c a b :
  eval c (e_or a b) =
  rbind (eval c a) (fun l => if to_bool l then ret (Ok l) else eval c b).
Proof. unfold e_or. rewrite eval_call. reflexivity. Qed.

Lemma eval_cond c cnd x y :
  eval c (e_cond cnd x y) =
  rbind (eval c cnd) (fun vc => if to_bool vc then eval c x else eval c y).
Proof. unfold e_cond. rewrite eval_call. reflexivity. Qed.

(** The skipped branch of a conditional contributes no event: an [ev] that neither the condition
    nor the branch taken emits is not in the log of the whole. *)
Lemma no_event_from_skipped_cond c cnd x y vc lc ev :
  eval c cnd = (Ok vc, lc) -> ~ In ev lc ->
  ~ In ev (snd (eval c (if to_bool vc then x else y))) ->
  ~ In ev (snd (eval c (e_cond cnd x y))).
Proof.
  intros Hc Hn Hb. rewrite eval_cond, Hc. cbn [rbind].
  replace (if to_bool vc then eval c x else eval c y) with (eval c (if to_bool vc then x else y))
    by now destruct (to_bool vc).
  destruct (eval c (if to_bool vc then x else y)) as [r l]. cbn [snd] in *. rewrite in_app_iff. tauto.
Qed.
