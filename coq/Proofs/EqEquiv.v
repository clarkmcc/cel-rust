(** C09: on values whose doubles are IEEE-754 doubles, [==] is TRANSITIVE - across the three kinds
    of numbers (through the exact numbers denoted), through lists, maps and function values - and,
    on values whose maps hold each key once, REFLEXIVE if they contain no NaN.  With the symmetry
    of [EqSymmetry] it is an equivalence relation there. *)
From Cel.Model Require Import Compare.
From Cel.Proofs Require Import BaseFacts ValueFacts CompareProofs FloatOrder EqSymmetry.
Open Scope Z_scope.

(** every double inside the value is a valid binary64 *)
Fixpoint all_valid (v : value) : Prop :=
  match v with
  | VList l => (fix go (l : list value) : Prop :=
                  match l with [] => True | x :: l' => all_valid x /\ go l' end) l
  | VMap m => (fix go (m : list (key * value)) : Prop :=
                 match m with [] => True | (_, x) :: m' => all_valid x /\ go m' end) m
  | VFun _ (Some x) => all_valid x
  | VDbl f => fvalid f
  | _ => True
  end.

Lemma all_valid_vvalid v : all_valid v -> vvalid v.
Proof. destruct v; cbn; auto. Qed.

Lemma num_eq_trans a b c da db dc : vvalid a -> vvalid b -> vvalid c ->
  den a = Some da -> den b = Some db -> den c = Some dc ->
  v_eq a b = true -> v_eq b c = true -> v_eq a c = true.
Proof.
  intros Va Vb Vc Ha Hb Hc.
  rewrite (eq_exact_all a b da db Va Vb Ha Hb), (eq_exact_all b c db dc Vb Vc Hb Hc),
          (eq_exact_all a c da dc Va Vc Ha Hc).
  destruct (xcmp da db) as [[]|] eqn:E1; try discriminate.
  destruct (xcmp db dc) as [[]|] eqn:E2; try discriminate.
  now rewrite (xcmp_eq_trans _ _ _ E1 E2).
Qed.

Definition good (v : value) : Prop := nodup_maps v /\ all_valid v.

Theorem v_eq_trans a : forall b c, all_valid a -> all_valid b -> all_valid c ->
  v_eq a b = true -> v_eq b c = true -> v_eq a c = true.
Proof.
  induction a as [l IH|m IH|n|n x IH|a Ha] using value_ind'; intros b c Va Vb Vc Hab Hbc.
  - destruct b as [lb| | | | | | | | | | |]; try discriminate.
    destruct c as [lc| | | | | | | | | | |]; try discriminate.
    apply (all_go all_valid) in Va, Vb, Vc. apply v_eq_list in Hab, Hbc. apply v_eq_list.
    induction Hab as [|x y l lb Hxy _ IHl] in lc, Hbc, IH, Va, Vb, Vc |- *.
    + inversion Hbc. constructor.
    + inversion Hbc as [|? z ? lc' Hyz Hl]; subst. constructor.
      * apply Forall_inv in IH, Va, Vb, Vc. exact (IH y z Va Vb Vc Hxy Hyz).
      * apply Forall_inv_tail in IH, Va, Vb, Vc. now apply (IHl IH lc').
  - destruct b as [|mb| | | | | | | | | |]; try discriminate.
    destruct c as [|mc| | | | | | | | | |]; try discriminate.
    apply (all_go_snd all_valid) in Va, Vb, Vc.
    apply v_eq_map in Hab as [L1 F1], Hbc as [L2 F2]. apply v_eq_map. split; [congruence|].
    rewrite Forall_forall in *. intros [k v] Hin.
    destruct (F1 _ Hin) as [v' [G1 E1]].
    pose proof (assoc_get_in _ _ _ G1) as Hinb.
    destruct (F2 _ Hinb) as [v'' [G2 E2]].
    pose proof (assoc_get_in _ _ _ G2) as Hinc.
    exists v''. split; [exact G2|].
    exact (IH _ Hin v' v'' (Va _ Hin) (Vb _ Hinb) (Vc _ Hinc) E1 E2).
  - destruct b as [| |nb rb| | | | | | | | |]; try discriminate.
    destruct c as [| |nc rc| | | | | | | | |]; try discriminate.
    cbn [v_eq] in *. apply andb_true_iff in Hab as [S1 R1], Hbc as [S2 R2].
    rewrite (str_eqb_trans _ _ _ S1 S2). destruct rb; [discriminate|]. now destruct rc.
  - destruct b as [| |nb rb| | | | | | | | |]; try discriminate.
    destruct c as [| |nc rc| | | | | | | | |]; try discriminate.
    cbn [v_eq] in *. apply andb_true_iff in Hab as [S1 R1], Hbc as [S2 R2].
    rewrite (str_eqb_trans _ _ _ S1 S2). destruct rb as [y|]; [|discriminate]. destruct rc as [z|]; [|discriminate].
    exact (IH y z Va Vb Vc R1 R2).
  - (* equal values have the same kind; numbers go through the numbers denoted *)
    pose proof (eq_kind _ _ Hab) as K1. pose proof (eq_kind _ _ Hbc) as K2.
    destruct (den a) as [da|] eqn:Da.
    { destruct (same_kind_den a b da K1 Da) as [db Db], (same_kind_den b c db K2 Db) as [dc Dc].
      apply (num_eq_trans a b c da db dc); auto using all_valid_vvalid. }
    destruct a; try contradiction; try discriminate Da; destruct b; try discriminate K1;
      destruct c; try discriminate K2; cbn [v_eq] in *.
    + eapply str_eqb_trans; eassumption.
    + apply (list_eqb_eq N.eqb N.eqb_eq) in Hab, Hbc. apply (list_eqb_eq N.eqb N.eqb_eq). congruence.
    + destruct b0, b1, b; (discriminate || reflexivity).
    + apply Z.eqb_eq in Hab, Hbc. apply Z.eqb_eq. congruence.
    + apply Z.eqb_eq in Hab, Hbc. apply Z.eqb_eq. congruence.
    + reflexivity.
Qed.

Fixpoint nan_free (v : value) : Prop :=
  match v with
  | VList l => (fix go (l : list value) : Prop :=
                  match l with [] => True | x :: l' => nan_free x /\ go l' end) l
  | VMap m => (fix go (m : list (key * value)) : Prop :=
                 match m with [] => True | (_, x) :: m' => nan_free x /\ go m' end) m
  | VFun _ (Some x) => nan_free x
  | VDbl f => f <> S754_nan
  | _ => True
  end.

Theorem v_eq_refl a : nodup_maps a -> nan_free a -> v_eq a a = true.
Proof.
  induction a as [l IH|m IH|n|n x IH|a Ha] using value_ind'; intros Hd Hn.
  - apply (all_go nodup_maps) in Hd. apply (all_go nan_free) in Hn. apply v_eq_list.
    induction l as [|x l IHl]; [constructor|].
    inversion IH; subst. inversion Hd; subst. inversion Hn; subst. constructor; auto.
  - destruct Hd as [Nd Hd]. apply (all_go_snd nodup_maps) in Hd. apply (all_go_snd nan_free) in Hn.
    apply v_eq_map. split; [reflexivity|]. rewrite Forall_forall in *. intros [k v] Hin.
    exists v. split; [now apply in_assoc_get|]. exact (IH _ Hin (Hd _ Hin) (Hn _ Hin)).
  - cbn [v_eq]. now rewrite str_eqb_refl.
  - cbn [v_eq]. rewrite str_eqb_refl. exact (IH Hd Hn).
  - destruct a; try contradiction; cbn [v_eq]; try apply Z.eqb_refl; try reflexivity.
    + now apply feq_refl.
    + apply str_eqb_refl.
    + now apply (list_eqb_eq N.eqb N.eqb_eq).
    + now destruct b.
Qed.
