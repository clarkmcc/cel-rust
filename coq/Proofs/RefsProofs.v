(** C19: the error kinds its theorems speak of, and the report holds no macro-internal name. *)
From Cel.Model Require Import Eval Refs.
From Cel.Proofs Require Import BaseFacts EvalBase NoCrash.

(** [okish Ge o]: if [o] is an error, its class satisfies [Ge]. *)
Definition okish {A} (Ge : errclass -> Prop) (o : outcome A) : Prop :=
  match o with Err c => Ge c | _ => True end.

(** Error classes other than "undeclared reference": [ordinary], under the name C19 states its
    theorems with. *)
Definition plain (c : errclass) : Prop := match c with EUndeclared _ => False | _ => True end.

Lemma tame_plain {A} (o : outcome A) : tame o -> okish plain o.
Proof. destruct o; [exact (fun _ => I)|exact (fun H => H)|intros []]. Qed.

Lemma chk_plain z o : okish plain (chk_i64 z) /\ okish plain (chk_u64 z) /\ okish plain (chk_dur z) /\ okish plain (chk_ts z o).
Proof. repeat split; apply tame_plain, chk_tame. Qed.

Lemma ref_vars_no_at e : forall x, In x (ref_vars e) -> starts_at x = false.
Proof.
  induction e using expr_ind'; intros y Hy; cbn [ref_vars] in Hy; try (destruct Hy; fail).
  - destruct (starts_at x) eqn:E; [destruct Hy|]. destruct Hy as [<-|[]]. exact E.
  - rewrite in_app_iff, in_go in Hy. destruct Hy as [Hy|(a & Ha & Hy)].
    + destruct target as [t|]; [now apply (H t eq_refl)|destruct Hy].
    + rewrite Forall_forall in H0. now apply (H0 a).
  - now apply IHe.
  - apply in_go in Hy as (a & Ha & Hy). rewrite Forall_forall in H. now apply (H a).
  - apply in_go2 in Hy as (kv & Hkv & Hy). rewrite Forall_forall in H.
    destruct (H kv Hkv), Hy; auto.
  - (* the loop over the fields skips the names: [in_go2] with nothing for them, [[] ++ l] being [l] *)
    apply (in_go2 (fun _ => []) ref_vars) in Hy as (fv & Hfv & [[]|Hy]).
    rewrite Forall_forall in H. now apply (H fv).
  - rewrite !in_app_iff in Hy. destruct Hy as [Hy|[Hy|[Hy|[Hy|Hy]]]]; auto.
Qed.
