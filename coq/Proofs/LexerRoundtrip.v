(** C04: from source text to the tree - the lexer reads back a space-separated rendering of tokens
    that are [lexable]: shown here for the fixed tokens, identifiers, integers, back-quoted names
    and quoted literals; for the text of a double literal [ids_ok] assumes it and no lemma gives it.
    C12: each way of quoting a string or bytes literal gives one token, which compiles to the literal. *)
From Coq Require Import String.
From Cel.Model Require Import Surface.
From Cel.Proofs Require Import BaseFacts LexerTotal Digits LiteralProofs NumericProofs ParserRoundtrip ParserFuel.
From Coq Require Import Lia.
Open Scope nat_scope.

Definition tok_text (t : tk) : str :=
  match t with
  | TEq => $"==" | TNe => $"!=" | TIn => $"in" | TLt => $"<" | TLe => $"<=" | TGe => $">=" | TGt => $">"
  | TAndAnd => $"&&" | TOrOr => $"||" | TLParen => $"(" | TRParen => $")" | TMinus => $"-" | TBang => $"!"
  | TQuestion => $"?" | TColon => $":" | TPlus => $"+" | TStar => $"*" | TSlash => $"/" | TPercent => $"%"
  | TIdent x => x
  | TDot => $"." | TLBracket => $"[" | TRBracket => $"]" | TLBrace => $"{" | TRBrace => $"}" | TComma => $","
  | TTrue => $"true" | TFalse => $"false" | TNull => $"null"
  | TInt t => t | TUint t => t | TString t => t | TBytes t => t | TFloat t => t
  | TEscIdent t => t
  end.

Definition ident_okb (x : str) : bool :=
  match x with
  | [] => false
  | c :: _ => is_ident_start c && forallb is_ident_char x &&
              negb (str_eqb x (kw "in")) && negb (str_eqb x (kw "true")) &&
              negb (str_eqb x (kw "false")) && negb (str_eqb x (kw "null"))
  end.

(** the tokens with a fixed text, and identifiers *)
Definition simple_tok (t : tk) : bool :=
  match t with
  | TEq | TNe | TIn | TLt | TLe | TGe | TGt | TAndAnd | TOrOr | TLParen | TRParen | TMinus | TBang
  | TQuestion | TColon | TPlus | TStar | TSlash | TPercent => true
  | TIdent x => ident_okb x
  | TDot | TLBracket | TRBracket | TLBrace | TRBrace | TComma | TTrue | TFalse | TNull => true
  | _ => false
  end.

Definition text (ts : list tk) : str := flat_map (fun t => tok_text t ++ [32%N]) ts.

(** what the text round trip needs of a token: its text starts with a non-blank character and,
    followed by a space, lexes back as exactly that token *)
Definition lexable (t : tk) : Prop :=
  (exists c r, tok_text t = c :: r /\ is_ws c = false) /\
  forall rest, lex_one (tok_text t ++ 32%N :: rest) = Some (Some t, 32%N :: rest).

(** the rules [lex_one] tries first do not apply: no STRING or BYTES token starts at a non-quote *)
Definition nq (c : N) : bool := negb ((c =? 34) || (c =? 39))%N.

Lemma no_string_head a s : nq a = true -> match s with [] => True | b :: _ => nq b = true end ->
  string_tok_len (a :: s) = None.
Proof.
  unfold nq. rewrite Bool.negb_true_iff. intros Ha Hs. unfold string_tok_len. rewrite (string_len_other false a s Ha).
  destruct ((a =? ch "r") || (a =? ch "R"))%N; [|reflexivity].
  destruct s as [|b s']; [reflexivity|]. apply Bool.negb_true_iff in Hs. now rewrite (string_len_other true b s' Hs).
Qed.

Lemma bytes_tok_len_none c s : string_tok_len s = None -> bytes_tok_len (c :: s) = None.
Proof. intros H. unfold bytes_tok_len. rewrite H. now destruct ((c =? ch "b") || (c =? ch "B"))%N. Qed.

Lemma ident_char_nq c : is_ident_char c = true -> nq c = true.
Proof. unfold is_ident_char, is_letter, is_digit, nq. intros H. lia. Qed.

Lemma digit_nq c : is_digit c = true -> nq c = true.
Proof. unfold is_digit, nq. intros H. lia. Qed.

(** an identifier may begin with b or r: what follows the prefix is no quote either *)
Lemma ident_no_string x rest : forallb is_ident_char x = true -> string_tok_len (x ++ 32%N :: rest) = None.
Proof.
  intros Hx. destruct x as [|a x]; [reflexivity|].
  apply andb_prop in Hx as [Ha Hx]. apply no_string_head; [now apply ident_char_nq|].
  destruct x as [|b x]; [reflexivity|]. apply andb_prop in Hx as [Hb _]. now apply ident_char_nq.
Qed.

Lemma lex_ident x rest : ident_okb x = true -> lex_one (x ++ 32%N :: rest) = Some (Some (TIdent x), 32%N :: rest).
Proof.
  intros Hok. destruct x as [|c x']; [discriminate|]. unfold ident_okb in Hok.
  rewrite !Bool.andb_true_iff, !Bool.negb_true_iff in Hok. destruct Hok as (((((Hs & Hc) & K1) & K2) & K3) & K4).
  pose proof (ident_no_string (c :: x') rest Hc) as Hn.
  cbn [forallb] in Hc. apply andb_prop in Hc as [Hc0 Hc'].
  unfold lex_one. cbn [app] in *. rewrite (bytes_tok_len_none c _ (ident_no_string x' rest Hc')), Hn.
  assert (Hws : is_ws c = false) by (unfold is_ident_start, is_letter, is_ws in *; lia).
  rewrite Hws, Hs.
  change (c :: x' ++ 32%N :: rest) with ((c :: x') ++ 32%N :: rest).
  rewrite (span_app_stop is_ident_char (c :: x') (32%N :: rest)) by (cbn [forallb]; now rewrite ?Hc0, ?Hc').
  now rewrite K1, K2, K3, K4.
Qed.

Lemma simple_lexable t : simple_tok t = true -> lexable t.
Proof.
  intros H. split; [|intros rest; destruct t; try discriminate; try reflexivity; now apply lex_ident].
  destruct t; try discriminate; try (eexists; eexists; split; reflexivity).
  unfold simple_tok, ident_okb in H. destruct text0 as [|c r]; [discriminate|].
  exists c, r. split; [reflexivity|]. rewrite !Bool.andb_true_iff in H. destruct H as (((((H & _) & _) & _) & _) & _).
  unfold is_ident_start, is_letter, is_ws in *. lia.
Qed.

(** integer tokens: the digits [ds] followed by a character that continues no number *)
Lemma num_tok_digits ds stop rest : forallb is_digit ds = true -> ds <> [] ->
  is_digit stop = false -> (stop =? 46)%N = false -> (stop =? ch "x")%N = false ->
  ((stop =? ch "e") || (stop =? ch "E"))%N = false ->
  num_tok (ds ++ stop :: rest) =
  Some (if ((stop =? ch "u") || (stop =? ch "U"))%N then (NUint, S (length ds)) else (NInt, length ds)).
Proof.
  intros Hd Hne Hs H46 Hx He. unfold num_tok.
  rewrite (span_app_stop is_digit ds (stop :: rest) Hd Hs).
  destruct ds as [|d ds']; [congruence|]. cbn iota beta.
  (* no 0x: the second character is a digit, or [stop] *)
  assert (Hh : match (d :: ds') ++ stop :: rest with
               | z :: x :: r1 => ((z =? 48) && (x =? ch "x"))%N = false
               | _ => True end).
  { destruct ds' as [|d2 ds'']; cbn [app].
    - now rewrite Hx, Bool.andb_false_r.
    - cbn [forallb] in Hd. apply andb_prop in Hd as [_ Hd]. apply andb_prop in Hd as [Hd _].
      now rewrite (digit_not_x d2 Hd), Bool.andb_false_r. }
  cbn [app] in *. destruct (ds' ++ stop :: rest) as [|x r1] eqn:E; [destruct ds'; discriminate|].
  rewrite Hh, H46. unfold exponent_len. rewrite He. cbn [option_map]. cbv iota beta.
  destruct ((stop =? ch "u") || (stop =? ch "U"))%N; [|reflexivity].
  unfold best_num. now rewrite (proj2 (Nat.ltb_lt _ _) (Nat.lt_succ_diag_r _)).
Qed.

Lemma lex_one_num t rest k : match t with d :: _ => is_digit d = true | [] => False end ->
  num_tok (t ++ rest) = Some (k, length t) ->
  lex_one (t ++ rest) =
  Some (Some (match k with NFloat => TFloat t | NInt => TInt t | NUint => TUint t end), rest).
Proof.
  destruct t as [|d t']; [intros []|]. intros Hd Hn.
  assert (Hc : bytes_tok_len (d :: t' ++ rest) = None /\ string_tok_len (d :: t' ++ rest) = None /\
               is_ws d = false /\ is_ident_start d = false).
  { rewrite <- and_assoc. unfold is_digit in Hd.
    split; [apply no_literal_head|split]; unfold is_ws, is_ident_start, is_letter; lia. }
  destruct Hc as (Hb & Hs & Hw & Hi). destruct (take_app (d :: t') rest) as [T1 T2].
  unfold lex_one. cbn [app] in *. now rewrite Hb, Hs, Hw, Hi, Hn, T1, T2.
Qed.

Lemma lexable_num t k : match t with d :: _ => is_digit d = true | [] => False end ->
  (forall rest, num_tok (t ++ 32%N :: rest) = Some (k, length t)) ->
  lexable (match k with NFloat => TFloat t | NInt => TInt t | NUint => TUint t end).
Proof.
  intros Hd Hn. split.
  - destruct t as [|d t']; [destruct Hd|]. exists d, t'. split; [now destruct k|].
    unfold is_digit, is_ws in *. lia.
  - intros rest. replace (tok_text _) with t by now destruct k. now apply lex_one_num.
Qed.

Lemma digits_head ds : forallb is_digit ds = true -> ds <> [] -> forall sfx,
  match ds ++ sfx with d :: _ => is_digit d = true | [] => False end.
Proof.
  intros Hd Hne sfx. destruct ds as [|d r]; [congruence|]. cbn [forallb] in Hd. now apply andb_prop in Hd as [Hd _].
Qed.

Lemma lexable_int ds : forallb is_digit ds = true -> ds <> [] -> lexable (TInt ds).
Proof.
  intros Hd Hne. apply (lexable_num ds NInt).
  - rewrite <- (app_nil_r ds). now apply digits_head.
  - intros rest. now apply (num_tok_digits ds 32%N rest).
Qed.

Lemma lexable_uint ds : forallb is_digit ds = true -> ds <> [] -> lexable (TUint (ds ++ [ch "u"])).
Proof.
  intros Hd Hne. apply (lexable_num (ds ++ [ch "u"]) NUint); [now apply digits_head|].
  intros rest. rewrite app_last, app_length, Nat.add_1_r. now apply (num_tok_digits ds (ch "u") (32%N :: rest)).
Qed.

Lemma lex_space rest : (match rest with c :: _ => is_ws c = false | [] => True end) ->
  lex_one (32%N :: rest) = Some (None, rest).
Proof.
  intros H. unfold lex_one. cbn [bytes_tok_len string_tok_len string_len N.eqb orb option_map].
  change (is_ws 32) with true. cbv iota.
  destruct rest as [|c r]; [reflexivity|]. cbn [span]. now rewrite H.
Qed.

(** a back-quoted identifier:  ` body `  with a non-empty body of the characters the rule allows *)
Lemma lexable_escident body : body <> [] -> forallb is_esc_ident_char body = true ->
  lexable (TEscIdent (96%N :: body ++ [96%N])).
Proof.
  intros Hne Hb. split; [eexists; eexists; split; [reflexivity|reflexivity]|].
  intros rest. cbn [tok_text]. rewrite app_comm_cons, app_last. cbn [app].
  destruct (no_literal_head 96%N (body ++ 96%N :: 32%N :: rest) eq_refl eq_refl) as [Hn Hs].
  unfold lex_one. rewrite Hn, Hs.
  change (is_ws 96) with false. change (is_ident_start 96) with false. cbv beta iota.
  assert (NT : num_tok (96%N :: body ++ 96%N :: 32%N :: rest) = None).
  { reflexivity. }
  rewrite NT. rewrite N.eqb_refl. rewrite (span_app_stop is_esc_ident_char body (96%N :: 32%N :: rest) Hb eq_refl).
  destruct body as [|c r]; [congruence|]. rewrite N.eqb_refl. reflexivity.
Qed.

Lemma text_head ts : Forall lexable ts ->
  match text ts with c :: _ => is_ws c = false | [] => True end.
Proof.
  intros H. destruct H as [|t ts Ht _]; [exact I|]. cbn [text flat_map].
  destruct Ht as [(c & r & -> & Hc) _]. exact Hc.
Qed.

Lemma lex_text ts : Forall lexable ts -> forall f acc, 2 * length ts <= f ->
  lex_fuel f (text ts) acc = Some (rev' acc ++ ts).
Proof.
  induction 1 as [|t ts Ht Hts IH]; intros f acc Hf.
  - destruct f; cbn [lex_fuel]; now rewrite app_nil_r.
  - cbn [length] in Hf. destruct f as [|[|f]]; try lia.
    change (text (t :: ts)) with ((tok_text t ++ [32%N]) ++ text ts). rewrite <- app_assoc. cbn [app].
    destruct Ht as [(c & r & Et & _) Hlex].
    assert (Hl : lex_fuel (S (S f)) (tok_text t ++ 32%N :: text ts) acc = lex_fuel (S f) (32%N :: text ts) (t :: acc)).
    { rewrite Et. cbn [app lex_fuel]. change (c :: r ++ 32%N :: text ts) with ((c :: r) ++ 32%N :: text ts).
      rewrite <- Et, (Hlex (text ts)). reflexivity. }
    rewrite Hl. cbn [lex_fuel]. rewrite (lex_space (text ts) (text_head ts Hts)).
    rewrite IH by lia. now rewrite rev'_cons.
Qed.

Lemma text_len ts : Forall lexable ts -> 2 * length ts <= length (text ts).
Proof.
  induction 1 as [|t ts Ht _ IH]; [cbn; lia|]. cbn [text flat_map length]. rewrite !app_length.
  destruct Ht as [(c & r & -> & _) _]. cbn [length]. fold (text ts). lia.
Qed.

Theorem lex_roundtrip ts : Forall lexable ts -> lex (text ts) = Some ts.
Proof.
  intros H. unfold lex. rewrite (lex_text ts H); [reflexivity|]. pose proof (text_len ts H). lia.
Qed.

Fixpoint ids_ok (t : st) : Prop :=
  let all := (fix go (l : list st) : Prop := match l with [] => True | r :: l' => ids_ok r /\ go l' end) in
  match t with
  | SId x => ident_okb x = true
  | SLit (LStr t _) => lexable (TString t)
  | SLit (LBytes t _) => lexable (TBytes t)
  | SLit (LDbl t) => lexable (TFloat t)
  | SNegDbl t => lexable (TFloat t)
  | SLit _ => True
  | SNegLit _ => True
  | SSel a f => ids_ok a /\ ident_okb f = true
  | SIdx a i => ids_ok a /\ ids_ok i
  | SMCall a f args => ident_okb f = true /\ ids_ok a /\ all args
  | SCall f args => ident_okb f = true /\ all args
  | SLst es => all es
  | SMap kvs => (fix go (l : list (st * st)) : Prop :=
                   match l with [] => True | (k, v) :: l' => ids_ok k /\ ids_ok v /\ go l' end) kvs
  | SMsg _ names fields =>
      Forall (fun n => ident_okb n = true) names /\
      (fix go (l : list (str * st)) : Prop :=
         match l with [] => True | (n, v) :: l' => ident_okb n = true /\ ids_ok v /\ go l' end) fields
  | SLstT es => all es
  | SMapT kvs => (fix go (l : list (st * st)) : Prop :=
                    match l with [] => True | (k, v) :: l' => ids_ok k /\ ids_ok v /\ go l' end) kvs
  | SMsgT _ names fields =>
      Forall (fun n => ident_okb n = true) names /\
      (fix go (l : list (str * st)) : Prop :=
         match l with [] => True | (n, v) :: l' => ident_okb n = true /\ ids_ok v /\ go l' end) fields
  | SDotId x => ident_okb x = true
  | SDotCall f args => ident_okb f = true /\ all args
  | SSelEsc a f => ids_ok a /\ lexable (TEscIdent f)
  | SNot _ a | SNeg _ a | SParen a => ids_ok a
  | SMul _ a b | SAdd _ a b | SRel _ a b => ids_ok a /\ ids_ok b
  | SAnd a rs | SOr a rs =>
      ids_ok a /\ (fix go (l : list st) : Prop := match l with [] => True | r :: l' => ids_ok r /\ go l' end) rs
  | SCond c a b => ids_ok c /\ ids_ok a /\ ids_ok b
  end.

Definition Simple (ts : list tk) : Prop := Forall lexable ts.

Lemma simple_app a b : Simple a -> Simple b -> Simple (a ++ b).
Proof. intros Ha Hb. apply Forall_app. split; assumption. Qed.
Lemma simple_cons t ts : simple_tok t = true -> Simple ts -> Simple (t :: ts).
Proof. intros H Hs. constructor; [now apply simple_lexable|assumption]. Qed.
Lemma simple_fixed ts : forallb simple_tok ts = true -> Simple ts.
Proof.
  induction ts as [|t ts IH]; [constructor|]. cbn [forallb]. intros H. apply andb_prop in H as [Ht Hts].
  apply simple_cons; auto.
Qed.
Lemma simple_one t : simple_tok t = true -> Simple [t].
Proof. intros H. apply simple_fixed. cbn [forallb]. now rewrite H. Qed.
Lemma lexable_one t : lexable t -> Simple [t].
Proof. intros H. constructor; [exact H|constructor]. Qed.
Lemma simple_repeat t n : simple_tok t = true -> Simple (repeat t n).
Proof. intros H. induction n; cbn [repeat]; [constructor|now apply simple_cons]. Qed.

(** the recurring shape of a rendering: fixed tokens and identifiers around a rendered part *)
Lemma simple_wrap pre body post : forallb simple_tok pre = true -> Simple body -> forallb simple_tok post = true ->
  Simple (pre ++ body ++ post).
Proof.
  intros Hp Hb Hq. apply simple_app; [now apply simple_fixed|]. apply simple_app; [exact Hb|now apply simple_fixed].
Qed.

Lemma simple_tk_at l t : Simple (raw t) -> Simple (tk_at l t).
Proof.
  intros H. unfold tk_at. destruct (l <=? prec t); [exact H|]. now apply (simple_wrap [TLParen] (raw t) [TRParen]).
Qed.
Lemma simple_at l t rest : Simple (raw t) -> Simple rest -> Simple (tk_at l t ++ rest).
Proof. intros H Hr. apply simple_app; [now apply simple_tk_at|exact Hr]. Qed.

Lemma lexable_nat_digits z : (0 <= z)%Z ->
  lexable (TInt (nat_digits z)) /\ lexable (TUint (nat_digits z ++ [ch "u"])).
Proof.
  intros Hz. destruct (nat_digits_spec z Hz) as (_ & H2 & _). pose proof (nat_digits_nonempty z Hz) as H3. split; [now apply lexable_int|now apply lexable_uint].
Qed.

Lemma simple_lit l : wf_lit l = true -> ids_ok (SLit l) -> lexable (lit_tk l).
Proof.
  destruct l as [z|z|[]| |t s|t b|t]; cbn [wf_lit lit_tk ids_ok]; intros W K; try exact K;
    try (now apply simple_lexable).
  - apply lexable_nat_digits. lia.
  - apply lexable_nat_digits. unfold in_u64 in W. lia.
Qed.

Lemma simple_all l : Forall (fun t => wf_st t -> ids_ok t -> Simple (raw t)) l ->
  Forall wf_st l -> Forall ids_ok l -> Simple (commas l).
Proof.
  induction 1 as [|r rs Hr _ IH]; [constructor|]. rewrite !Forall_cons_iff. intros [Wr Wrs] [Ir Irs]. cbn [commas].
  apply simple_app; [auto|]. destruct rs; [constructor|]. apply simple_cons; [reflexivity|now apply IH].
Qed.

Lemma simple_all_entries l :
  Forall (fun kv => (wf_st (fst kv) -> ids_ok (fst kv) -> Simple (raw (fst kv))) /\
                    (wf_st (snd kv) -> ids_ok (snd kv) -> Simple (raw (snd kv)))) l ->
  Forall (fun kv => wf_st (fst kv) /\ wf_st (snd kv)) l -> Forall (fun kv => ids_ok (fst kv) /\ ids_ok (snd kv)) l ->
  Simple (entries_tk l).
Proof.
  induction 1 as [|[k v] l [Hk Hv] _ IH]; [constructor|]. rewrite !Forall_cons_iff. intros [[Wk Wv] Wl] [[Ik Iv] Il].
  apply simple_app; [auto|]. apply simple_app; [now apply simple_one|].
  apply simple_app; [auto|]. destruct l; [constructor|]. apply simple_cons; [reflexivity|now apply IH].
Qed.

Lemma simple_ids_tk names : Forall (fun n => ident_okb n = true) names -> Simple (ids_tk names).
Proof.
  induction 1 as [|a names Ha Hn IH]; [constructor|]. destruct names as [|b names'].
  - now apply simple_one.
  - change (ids_tk (a :: b :: names')) with (TIdent a :: TDot :: ids_tk (b :: names')).
    apply simple_cons; [exact Ha|]. apply simple_cons; [reflexivity|exact IH].
Qed.

Lemma simple_fields (l : list (str * st)) :
  Forall (fun nv => wf_st (snd nv) -> ids_ok (snd nv) -> Simple (raw (snd nv))) l ->
  Forall (fun nv => wf_st (snd nv)) l -> Forall (fun nv => ident_okb (fst nv) = true /\ ids_ok (snd nv)) l ->
  Simple (fields_tk l).
Proof.
  induction 1 as [|[n v] l Hv _ IH]; [constructor|]. rewrite !Forall_cons_iff. intros [Wv Wl] [[In0 Iv] Il].
  apply simple_cons; [exact In0|]. apply simple_cons; [reflexivity|].
  apply simple_app; [now apply Hv|]. destruct l; [constructor|]. apply simple_cons; [reflexivity|now apply IH].
Qed.

Lemma simple_chain op n rs : simple_tok op = true ->
  Forall (fun t => wf_st t -> ids_ok t -> Simple (raw t)) rs -> Forall wf_st rs -> Forall ids_ok rs ->
  Simple (flat_map (fun r => op :: tk_at n r) rs).
Proof.
  intros Hop. induction 1 as [|r rs Hr _ IH]; [constructor|]. rewrite !Forall_cons_iff. intros [Wr Wrs] [Ir Irs].
  apply simple_app; [|now apply IH]. apply simple_cons; [exact Hop|]. apply simple_tk_at. auto.
Qed.

(** a binary operator of one of the three levels is a token with a fixed text *)
Lemma simple_binary l1 l2 a op b : mulop_name op <> None \/ addop_name op <> None \/ relop_name op <> None ->
  Simple (raw a) -> Simple (raw b) -> Simple (tk_at l1 a ++ [op] ++ tk_at l2 b).
Proof.
  intros Hop Ha Hb. apply simple_at; [exact Ha|]. apply simple_cons; [|now apply simple_tk_at].
  destruct op; try reflexivity; cbn in Hop; intuition congruence.
Qed.

Lemma raw_simple t : wf_st t -> ids_ok t -> Simple (raw t).
Proof.
  induction t using st_ind'; cbn [wf_st ids_ok]; rewrite ?all_go, ?all_go2, ?all_go_snd; intros W K.
  - (* SId *) now apply simple_one.
  - (* SLit *) apply lexable_one. now apply simple_lit.
  - (* SNegLit *) apply simple_cons; [reflexivity|]. apply lexable_one, lexable_nat_digits. lia.
  - (* SNegDbl *) apply simple_cons; [reflexivity|]. now apply lexable_one.
  - (* SSel *) destruct K as [Ia If]. apply (simple_at 7 t); [auto|]. apply simple_cons; [reflexivity|now apply simple_one].
  - (* SIdx *) destruct W as [Wa Wi], K as [Ia Ii]. apply (simple_at 7 t1); [auto|]. apply simple_wrap; auto.
  - (* SMCall *) destruct W as (_ & Wa & Wargs), K as (If & Ia & Iargs). rewrite raw_mcall.
    apply simple_at; [auto|]. apply simple_wrap; [cbn; now rewrite If|now apply simple_all|reflexivity].
  - (* SCall *) destruct W as (_ & Wargs), K as (If & Iargs). rewrite raw_call.
    apply simple_wrap; [cbn; now rewrite If|now apply simple_all|reflexivity].
  - (* SLst *) rewrite raw_list. apply simple_wrap; [reflexivity|now apply simple_all|reflexivity].
  - (* SMap *) rewrite raw_map. apply simple_wrap; [reflexivity|now apply simple_all_entries|reflexivity].
  - (* SMsg *) destruct W as [_ Wf], K as [In If]. rewrite raw_msg.
    apply simple_app; [now destruct lead; apply simple_fixed|]. apply simple_app; [now apply simple_ids_tk|].
    apply simple_wrap; [reflexivity|now apply simple_fields|reflexivity].
  - (* SNot *) apply simple_app; [now apply (simple_repeat TBang)|]. apply (simple_tk_at 7 t). auto.
  - (* SNeg *) destruct W as [W _]. apply simple_app; [now apply (simple_repeat TMinus)|]. apply (simple_tk_at 7 t). auto.
  - (* SMul *) destruct W as (Wo & Wa & Wb), K as [Ia Ib]. apply (simple_binary 5 6); auto.
  - (* SAdd *) destruct W as (Wo & Wa & Wb), K as [Ia Ib]. apply (simple_binary 4 5); auto.
  - (* SRel *) destruct W as (Wo & Wa & Wb), K as [Ia Ib]. apply (simple_binary 3 4); auto.
  - (* SAnd *) destruct W as (Wa & _ & Wrs), K as [Ia Irs]. rewrite raw_and. apply simple_at; [auto|now apply simple_chain].
  - (* SOr *) destruct W as (Wa & _ & Wrs), K as [Ia Irs]. rewrite raw_or. apply simple_at; [auto|now apply simple_chain].
  - (* SCond *) destruct W as (Wc & Wa & Wb), K as (Ic & Ia & Ib). apply (simple_at 1 t1); [auto|].
    apply simple_cons; [reflexivity|]. apply (simple_at 1 t2); [auto|]. apply simple_cons; [reflexivity|auto].
  - (* SParen *) apply (simple_wrap [TLParen] (raw t) [TRParen]); auto.
  - (* SLstT *) rewrite raw_listt. apply simple_wrap; [reflexivity|now apply simple_all|reflexivity].
  - (* SMapT *) rewrite raw_mapt. apply simple_wrap; [reflexivity|now apply simple_all_entries|reflexivity].
  - (* SMsgT *) destruct W as [_ Wf], K as [In If]. rewrite raw_msgt.
    apply simple_app; [now destruct lead; apply simple_fixed|]. apply simple_app; [now apply simple_ids_tk|].
    apply simple_wrap; [reflexivity|now apply simple_fields|reflexivity].
  - (* SDotId *) apply simple_cons; [reflexivity|]. now apply simple_one.
  - (* SDotCall *) destruct W as (_ & Wargs), K as (If & Iargs). rewrite raw_dotcall.
    apply simple_wrap; [cbn; now rewrite If|now apply simple_all|reflexivity].
  - (* SSelEsc *) destruct K as [Ia If]. apply (simple_at 7 t); [auto|]. apply simple_cons; [reflexivity|now apply lexable_one].
Qed.

Theorem compile_roundtrip t : wf_st t -> ids_ok t -> compile (text (raw t)) = CExpr (ast t).
Proof.
  intros W K. unfold compile. rewrite (lex_roundtrip (raw t) (raw_simple t W K)).
  now apply parse_tokens_roundtrip.
Qed.

(** the dispatch of [lex_one]: a BYTES match first, then a STRING match *)
Lemma lex_one_bytes t rest : bytes_tok_len (t ++ rest) = Some (length t) ->
  lex_one (t ++ rest) = Some (Some (TBytes t), rest).
Proof.
  pose proof (take_app t rest) as T. revert T. generalize (t ++ rest). intros s [T1 T2] Hb.
  destruct s; [discriminate|]. unfold lex_one. now rewrite Hb, T1, T2.
Qed.

Lemma lex_one_string t rest : bytes_tok_len (t ++ rest) = None -> string_tok_len (t ++ rest) = Some (length t) ->
  lex_one (t ++ rest) = Some (Some (TString t), rest).
Proof.
  pose proof (take_app t rest) as T. revert T. generalize (t ++ rest). intros s [T1 T2] Hb Hs.
  destruct s; [discriminate|]. unfold lex_one. now rewrite Hb, Hs, T1, T2.
Qed.

Lemma string_tok_len_plain q s : (q = 34 \/ q = 39)%N -> string_tok_len (q :: s) = string_len false (q :: s).
Proof. intros Hq. unfold string_tok_len. now rewrite (quote_not_rR q Hq). Qed.
Lemma string_tok_len_raw p s : (p = ch "r" \/ p = ch "R")%N -> string_tok_len (p :: s) = option_map S (string_len true s).
Proof. intros Hp. unfold string_tok_len. now rewrite (rR_eqb p Hp). Qed.
Lemma bytes_tok_len_prefix b s : (b = ch "b" \/ b = ch "B")%N -> bytes_tok_len (b :: s) = option_map S (string_tok_len s).
Proof. intros Hb. unfold bytes_tok_len. now rewrite (bB_eqb b Hb). Qed.
Lemma bytes_tok_len_other c s : ((c =? ch "b") || (c =? ch "B"))%N = false -> bytes_tok_len (c :: s) = None.
Proof. intros Hc. unfold bytes_tok_len. now rewrite Hc. Qed.

(** [closes raw t]: of the text [t] followed by a space, the STRING rule with raw flag [raw]
    matches exactly [t] *)
Definition closes (raw : bool) (t : str) : Prop :=
  forall rest, string_len raw (t ++ 32%N :: rest) = Some (length t).

Lemma lexable_str q t : (q = 34 \/ q = 39)%N -> closes false (q :: t) -> lexable (TString (q :: t)).
Proof.
  intros Hq H. split; [exists q, t; split; [reflexivity|now apply quote_not_ws]|].
  intros rest. apply lex_one_string.
  - apply bytes_tok_len_other, quote_not_bB, Hq.
  - cbn [tok_text app]. rewrite (string_tok_len_plain q _ Hq). apply H.
Qed.
Lemma lexable_raw p t : (p = ch "r" \/ p = ch "R")%N -> closes true t -> lexable (TString (p :: t)).
Proof.
  intros Hp H. split; [exists p, t; split; [reflexivity|now apply rR_not_ws]|].
  intros rest. apply lex_one_string.
  - apply bytes_tok_len_other, rR_not_bB, Hp.
  - cbn [tok_text app]. now rewrite (string_tok_len_raw p _ Hp), H.
Qed.
Lemma lexable_bytes b q t : (b = ch "b" \/ b = ch "B")%N -> (q = 34 \/ q = 39)%N -> closes false (q :: t) ->
  lexable (TBytes (b :: q :: t)).
Proof.
  intros Hb Hq H. split; [exists b, (q :: t); split; [reflexivity|now apply bB_not_ws]|].
  intros rest. apply lex_one_bytes. cbn [tok_text app].
  rewrite (bytes_tok_len_prefix b _ Hb), (string_tok_len_plain q _ Hq). exact (f_equal (option_map S) (H rest)).
Qed.
Lemma lexable_rawbytes b p t : (b = ch "b" \/ b = ch "B")%N -> (p = ch "r" \/ p = ch "R")%N -> closes true t ->
  lexable (TBytes (b :: p :: t)).
Proof.
  intros Hb Hp H. split; [exists b, (p :: t); split; [reflexivity|now apply bB_not_ws]|].
  intros rest. apply lex_one_bytes. cbn [tok_text app].
  now rewrite (bytes_tok_len_prefix b _ Hb), (string_tok_len_raw p _ Hp), H.
Qed.

(** The one-quote form  q body q : given that the short scanner runs through [body] up to the
    quote.  It stops at the first quote, so [body] does not begin with one, and an empty body is
    followed by the space: the triple-quoted alternative does not apply. *)
Lemma closes_short raw q body : (q = 34 \/ q = 39)%N ->
  (forall rest f n, length body < f -> scan_short (S f) q raw (body ++ q :: rest) n = Some (S (length body + n))) ->
  closes raw (q :: body ++ [q]).
Proof.
  intros Hq Hs rest. rewrite app_comm_cons, app_last. cbn [app].
  assert (El : length (q :: body ++ [q]) = S (S (length body))) by (cbn [length]; rewrite app_length; cbn [length]; lia).
  unfold string_len. rewrite El, (quote_eqb q Hq), Hs, Nat.add_0_r by (cbn [length]; rewrite app_length; cbn [length]; lia).
  cbn [option_map]. destruct body as [|c r]; cbn [app].
  - rewrite N.eqb_refl. now replace (32 =? q)%N with false by (destruct Hq as [-> | ->]; reflexivity).
  - specialize (Hs rest (S (length (c :: r))) 0 (le_n _)). cbn [app scan_short] in Hs.
    destruct (c =? q)%N; [discriminate|]. now destruct (r ++ q :: 32%N :: rest).
Qed.

(** The triple-quoted form: the short scanner sees the empty literal  q q , the long one the whole. *)
Lemma closes_long raw q body : (q = 34 \/ q = 39)%N ->
  (forall rest f n, length body < f ->
     scan_long (S f) q raw (body ++ q :: q :: q :: rest) n = Some (3 + (length body + n))) ->
  closes raw (q :: q :: q :: body ++ [q; q; q]).
Proof.
  intros Hq Hs rest. rewrite !app_comm_cons. change [q; q; q] with ([q; q] ++ [q]).
  rewrite app_assoc, app_last, <- app_assoc. cbn [app].
  unfold string_len. rewrite (quote_eqb q Hq). cbn [scan_short]. rewrite !N.eqb_refl. cbn [andb option_map].
  rewrite Hs by (cbn [length]; rewrite app_length; cbn [length]; lia).
  cbn [option_map length]. rewrite !app_length. cbn [length]. f_equal. lia.
Qed.

(** a one-quote literal body the scanner accepts: escape sequences and characters other than
    the quote, the backslash and line breaks *)
Fixpoint body_ok (fuel : nat) (q : N) (s : str) : bool :=
  match fuel with
  | O => false
  | S f =>
      match s with
      | [] => true
      | c :: r =>
          if (c =? q)%N then false
          else if ((c =? 10) || (c =? 13))%N then false
          else if (c =? 92)%N then
            match esc_len r with Some k => body_ok f q (skipn k r) | None => false end
          else body_ok f q r
      end
  end.

Lemma esc_len_app r x k : esc_len r = Some k ->
  esc_len (r ++ x) = Some k /\ skipn k (r ++ x) = skipn k r ++ x /\ k + length (skipn k r) = length r.
Proof.
  intros H. enough (E : esc_len (r ++ x) = Some k /\ k <= length r).
  { destruct E as [E Hk]. rewrite skipn_app, skipn_length. replace (k - length r) with 0 by lia. repeat split; [exact E|lia]. }
  destruct r as [|c r]; [discriminate|]. cbn [esc_len app length] in *.
  match type of H with (if ?b then _ else _) = _ => destruct b end; [injection H as <-; split; [reflexivity|lia]|].
  match type of H with (if ?b then _ else _) = _ => destruct b end.
  { destruct r as [|h1 [|h2 r]]; try discriminate. cbn [app length]. destruct (is_hex h1 && is_hex h2); [|discriminate].
    injection H as <-. split; [reflexivity|lia]. }
  match type of H with (if ?b then _ else _) = _ => destruct b end.
  { destruct r as [|h1 [|h2 [|h3 [|h4 r]]]]; try discriminate. cbn [app length].
    destruct (is_hex h1 && is_hex h2 && is_hex h3 && is_hex h4); [|discriminate]. injection H as <-. split; [reflexivity|lia]. }
  match type of H with (if ?b then _ else _) = _ => destruct b end.
  { destruct r as [|h1 [|h2 [|h3 [|h4 [|h5 [|h6 [|h7 [|h8 r]]]]]]]]; try discriminate. cbn [app length].
    match type of H with (if ?b then _ else _) = _ => destruct b end; [|discriminate]. injection H as <-. split; [reflexivity|lia]. }
  match type of H with (if ?b then _ else _) = _ => destruct b end; [|discriminate].
  destruct r as [|o1 [|o2 r]]; try discriminate. cbn [app length]. destruct (is_oct o1 && is_oct o2); [|discriminate].
  injection H as <-. split; [reflexivity|lia].
Qed.

Lemma scan_short_ok f : forall q body n rest f', body_ok f q body = true -> f <= f' ->
  scan_short (S f') q false (body ++ q :: rest) n = Some (S (length body + n)).
Proof.
  induction f as [|f IH]; intros q body n rest f' Hb Hf; [discriminate|].
  destruct body as [|c r]; cbn [app scan_short length].
  - now rewrite N.eqb_refl.
  - cbn [body_ok] in Hb.
    destruct (c =? q)%N; [discriminate|]. destruct ((c =? 10) || (c =? 13))%N; [discriminate|].
    destruct f' as [|f']; [lia|].
    destruct (c =? 92)%N; cbn [negb andb].
    + destruct (esc_len r) as [k|] eqn:E; [|discriminate].
      destruct (esc_len_app r (q :: rest) k E) as (E' & Sk & Lk). rewrite E', Sk.
      rewrite (IH q (skipn k r) (S (k + n)) rest f' Hb ltac:(lia)). f_equal. lia.
    + rewrite (IH q r (S n) rest f' Hb ltac:(lia)). f_equal. lia.
Qed.

(** one step of the long scanner over a character that does not begin the closing delimiter;
    the scanner looks two characters ahead *)
Lemma scan_long_step f q raw c r n : 2 <= length r ->
  match r with b :: d :: _ => ((c =? q) && (b =? q) && (d =? q))%N | _ => false end = false ->
  scan_long (S f) q raw (c :: r) n =
  if (c =? 92)%N && negb raw then
    match esc_len r with Some k => scan_long f q raw (skipn k r) (S (k + n)) | None => None end
  else if raw && ((c =? 0) || (c =? 1114111))%N then None
  else scan_long f q raw r (S n).
Proof. intros H E. destruct r as [|b [|d t]]; [cbn in H; lia..|]. cbn [scan_long tl]. now rewrite E. Qed.

Lemma scan_long_ok f : forall q body n rest f', body_ok f q body = true -> f <= f' ->
  scan_long (S f') q false (body ++ q :: q :: q :: rest) n = Some (3 + (length body + n)).
Proof.
  induction f as [|f IH]; intros q body n rest f' Hb Hf; [discriminate|].
  destruct body as [|c r]; cbn [app length].
  - cbn [scan_long]. now rewrite !N.eqb_refl.
  - cbn [body_ok] in Hb. destruct (c =? q)%N eqn:Ecq; [discriminate|].
    destruct ((c =? 10) || (c =? 13))%N; [discriminate|].
    destruct f' as [|f']; [lia|].
    rewrite scan_long_step;
      [|rewrite app_length; cbn [length]; lia|rewrite Ecq; now destruct (r ++ q :: q :: q :: rest) as [|b [|d t]]].
    destruct (c =? 92)%N; cbn [negb andb].
    + destruct (esc_len r) as [k|] eqn:E; [|discriminate].
      destruct (esc_len_app r (q :: q :: q :: rest) k E) as (E' & Sk & Lk). rewrite E', Sk.
      rewrite (IH q (skipn k r) (S (k + n)) rest f' Hb ltac:(lia)). f_equal. lia.
    + rewrite (IH q r (S n) rest f' Hb ltac:(lia)). f_equal. lia.
Qed.

Lemma closes_body1 q body : (q = 34 \/ q = 39)%N -> body_ok (S (length body)) q body = true ->
  closes false (q :: body ++ [q]).
Proof.
  intros Hq Hb. apply closes_short; [exact Hq|]. intros rest f n Hf. exact (scan_short_ok _ q body n rest f Hb Hf).
Qed.
Lemma closes_body3 q body : (q = 34 \/ q = 39)%N -> body_ok (S (length body)) q body = true ->
  closes false (q :: q :: q :: body ++ [q; q; q]).
Proof.
  intros Hq Hb. apply closes_long; [exact Hq|]. intros rest f n Hf. exact (scan_long_ok _ q body n rest f Hb Hf).
Qed.

Lemma body_ok_mono f : forall q s f', body_ok f q s = true -> f <= f' -> body_ok f' q s = true.
Proof.
  induction f as [|f IH]; intros q s f' H Hf; [discriminate|]. destruct f' as [|f']; [lia|].
  cbn [body_ok] in *. destruct s as [|c r]; [reflexivity|].
  destruct (c =? q)%N; [discriminate|]. destruct ((c =? 10) || (c =? 13))%N; [discriminate|].
  destruct (c =? 92)%N.
  - destruct (esc_len r); [|discriminate]. apply IH; [exact H|lia].
  - apply IH; [exact H|lia].
Qed.

Lemma list2 {A} (l : list A) : length l = 2 -> exists a b, l = [a; b].
Proof. destruct l as [|a [|b [|c l]]]; try discriminate. eauto. Qed.
Lemma list3 {A} (l : list A) : length l = 3 -> exists a b c, l = [a; b; c].
Proof. destruct l as [|a [|b [|c [|d l]]]]; try discriminate. eauto. Qed.
Lemma list4 {A} (l : list A) : length l = 4 -> exists a b c d, l = [a; b; c; d].
Proof. destruct l as [|a [|b [|c [|d [|e l]]]]]; try discriminate. eauto 6. Qed.
Lemma list8 {A} (l : list A) : length l = 8 -> exists a b c d e f g h, l = [a; b; c; d; e; f; g; h].
Proof. destruct l as [|a [|b [|c [|d [|e [|f [|g [|h [|i l]]]]]]]]]; try discriminate. eauto 10. Qed.

(** every spelling [render] produces is such a body *)
Lemma render_units q : (q = 34 \/ q = 39)%N -> forall s ks body, render q s ks = Some body ->
  body_ok (S (length s)) q body = true /\ length s <= length body.
Proof.
  intros Hq. induction s as [|c s IH]; intros ks body H; destruct ks as [|k ks]; cbn [render] in H; try discriminate.
  - injection H as <-. split; [reflexivity|cbn; lia].
  - destruct (render1 q c k) as [a|] eqn:E1; [|discriminate]. destruct (render q s ks) as [b|] eqn:E2; [|discriminate].
    injection H as <-. destruct (IH ks b E2) as [Hb Hl]. rewrite app_length.
    destruct (render1_spec q c k a E1) as [[-> E]|(e & -> & He & _)]; cbn [app length]; (split; [|lia]).
    + cbn [body_ok]. destruct (c =? q)%N; [discriminate|]. destruct (c =? 92)%N; [discriminate|].
      cbn [orb] in E. now rewrite E.
    + cbn [body_ok]. rewrite (He b), (proj2 (take_app e b)).
      now replace (92 =? q)%N with false by (destruct Hq as [-> | ->]; reflexivity).
Qed.

Lemma render_body_ok q s ks body : (q = 34 \/ q = 39)%N -> render q s ks = Some body ->
  body_ok (S (length body)) q body = true.
Proof.
  intros Hq H. destruct (render_units q Hq s ks body H) as [Hb Hl].
  apply (body_ok_mono _ q body _ Hb). lia.
Qed.

(** the bodies of the raw literals  r q body q  ([raw_ok1]) and  r qqq body qqq  ([raw_ok3]) *)
Definition raw_ok1 (q : N) (s : str) : bool :=
  forallb (fun c => negb ((c =? q) || (c =? 10) || (c =? 13))%N) s.
Definition raw_ok3 (q : N) (s : str) : bool :=
  forallb (fun c => negb ((c =? q) || (c =? 0) || (c =? 1114111))%N) s.

Lemma scan_short_raw q body rest : forall n f, raw_ok1 q body = true -> length body <= f ->
  scan_short (S f) q true (body ++ q :: rest) n = Some (S (length body + n)).
Proof.
  induction body as [|c r IH]; intros n f Hb Hf; cbn [app scan_short length negb].
  - now rewrite N.eqb_refl.
  - cbn [raw_ok1 forallb] in Hb. apply andb_prop in Hb as [Hc Hr]. apply Bool.negb_true_iff in Hc.
    rewrite <- Bool.orb_assoc in Hc. apply Bool.orb_false_iff in Hc as [Hcq Hnl].
    rewrite Hcq, Hnl, Bool.andb_false_r. destruct f as [|f]; [cbn [length] in Hf; lia|].
    rewrite (IH (S n) f Hr ltac:(cbn [length] in Hf; lia)). f_equal. lia.
Qed.

Lemma closes_raw1 q body : (q = 34 \/ q = 39)%N -> raw_ok1 q body = true -> closes true (q :: body ++ [q]).
Proof.
  intros Hq Hb. apply closes_short; [exact Hq|]. intros rest f n Hf.
  exact (scan_short_raw q body rest n f Hb (Nat.lt_le_incl _ _ Hf)).
Qed.

Lemma raw_ok1_head q s : raw_ok1 q s = true -> match s with c :: _ => c <> q | [] => True end.
Proof.
  destruct s as [|c r]; [easy|]. intros H. apply andb_prop in H as [Hc _].
  apply Bool.negb_true_iff in Hc. rewrite <- Bool.orb_assoc in Hc. apply Bool.orb_false_iff in Hc as [Hc _].
  now apply N.eqb_neq.
Qed.

Lemma compile_str_token tok s : decode_string tok = Some s -> lexable (TString tok) ->
  compile (text [TString tok]) = CExpr (ELit (VStr s)).
Proof.
  intros D L. apply (compile_roundtrip (SLit (LStr tok s))).
  - cbn [wf_st wf_lit]. rewrite D. now apply str_eqb_eq.
  - exact L.
Qed.
Lemma compile_bytes_token tok b : decode_bytes tok = Some b -> lexable (TBytes tok) ->
  compile (text [TBytes tok]) = CExpr (ELit (VBytes b)).
Proof.
  intros D L. apply (compile_roundtrip (SLit (LBytes tok b))).
  - cbn [wf_st wf_lit]. rewrite D. now apply str_eqb_eq.
  - exact L.
Qed.
