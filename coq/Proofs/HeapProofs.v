(** C05 (b): the reference-count discipline of list / string concatenation never lets an execution
    change a buffer the context (or an earlier result) holds. *)
From Cel.Model Require Import Heap.
From Coq Require Import Lia.
Open Scope nat_scope.

(** [tick r l]: the owner count the handle in [r] (if any) holds of cell [l]. *)
Definition tick (r : outcome hval) (l : nat) : nat :=
  match r with Ok (HRef k) => if Nat.eqb k l then 1 else 0 | _ => 0 end.

Lemma tick_same l : tick (Ok (HRef l)) l = 1.
Proof. cbn. now rewrite Nat.eqb_refl. Qed.
Lemma tick_other l k : l <> k -> tick (Ok (HRef l)) k = 0.
Proof. intros H. cbn. now destruct (Nat.eqb_spec l k). Qed.

Lemma tick_cases l k : l = k /\ tick (Ok (HRef l)) k = 1 \/ l <> k /\ tick (Ok (HRef l)) k = 0.
Proof. destruct (Nat.eq_dec l k) as [<-|N]; [left; now rewrite tick_same|right; now rewrite tick_other]. Qed.

Lemma upd_len σ : forall l f, length (upd σ l f) = length σ.
Proof. induction σ as [|c σ IH]; intros [|l] f; cbn [upd length]; auto. Qed.

Lemma upd_nth σ : forall l f k, nth_error (upd σ l f) k =
  if Nat.eqb l k then option_map f (nth_error σ k) else nth_error σ k.
Proof.
  induction σ as [|c σ IH]; intros l f k.
  - assert (E : nth_error (@nil cell) k = None) by (destruct k; reflexivity).
    destruct l; cbn [upd]; rewrite E; destruct (Nat.eqb _ k); reflexivity.
  - destruct l as [|l], k as [|k]; cbn [upd nth_error Nat.eqb option_map]; try reflexivity. apply IH.
Qed.

Lemma nth_some σ k : k < length σ -> exists c : cell, nth_error σ k = Some c.
Proof. intros H. destruct (nth_error σ k) eqn:E; [eauto|]. apply nth_error_None in E. lia. Qed.

Lemma rc_inc σ l k : l < length σ -> rc_of (inc σ l) k = rc_of σ k + tick (Ok (HRef l)) k.
Proof.
  intros Hl. unfold rc_of, inc. rewrite upd_nth. cbn [tick]. destruct (Nat.eqb_spec l k) as [<-|]; [|lia].
  destruct (nth_some σ l Hl) as [c ->]. cbn. lia.
Qed.
Lemma rc_dec σ l k : rc_of (dec σ l) k = rc_of σ k - tick (Ok (HRef l)) k.
Proof.
  unfold rc_of, dec. rewrite upd_nth. cbn [tick]. destruct (Nat.eqb_spec l k) as [<-|]; [|lia].
  destruct (nth_error σ l); cbn; lia.
Qed.
Lemma rc_set σ l p k : rc_of (set_pl σ l p) k = rc_of σ k.
Proof.
  unfold rc_of, set_pl. rewrite upd_nth. destruct (Nat.eqb l k); [|reflexivity]. now destruct (nth_error σ k).
Qed.
Lemma pl_inc σ l k : pl_of (inc σ l) k = pl_of σ k.
Proof. unfold pl_of, inc. rewrite upd_nth. destruct (Nat.eqb l k); [|reflexivity]. now destruct (nth_error σ k). Qed.
Lemma pl_dec σ l k : pl_of (dec σ l) k = pl_of σ k.
Proof. unfold pl_of, dec. rewrite upd_nth. destruct (Nat.eqb l k); [|reflexivity]. now destruct (nth_error σ k). Qed.
Lemma pl_set_same σ l p : l < length σ -> pl_of (set_pl σ l p) l = p.
Proof.
  intros Hl. unfold pl_of, set_pl. rewrite upd_nth, Nat.eqb_refl. destruct (nth_some σ l Hl) as [c ->]. reflexivity.
Qed.
Lemma pl_set_other σ l p k : l <> k -> pl_of (set_pl σ l p) k = pl_of σ k.
Proof. intros H. unfold pl_of, set_pl. rewrite upd_nth. now destruct (Nat.eqb_spec l k). Qed.
Lemma len_inc σ l : length (inc σ l) = length σ. Proof. apply upd_len. Qed.
Lemma len_dec σ l : length (dec σ l) = length σ. Proof. apply upd_len. Qed.
Lemma len_set σ l p : length (set_pl σ l p) = length σ. Proof. apply upd_len. Qed.

Lemma nth_snoc {A} (σ : list A) c k : nth_error (σ ++ [c]) k =
  if k <? length σ then nth_error σ k else if Nat.eqb k (length σ) then Some c else None.
Proof.
  destruct (Nat.ltb_spec k (length σ)); [now apply nth_error_app1|].
  rewrite nth_error_app2 by lia. destruct (Nat.eqb_spec k (length σ)) as [->|Hn]; [now rewrite Nat.sub_diag|].
  destruct (k - length σ) as [|j] eqn:E; [lia|]. cbn. now destruct j.
Qed.
Lemma rc_alloc σ p k : rc_of (σ ++ [{| rc := 1; pl := p |}]) k = rc_of σ k + tick (Ok (HRef (length σ))) k.
Proof.
  unfold rc_of. rewrite nth_snoc. cbn [tick]. rewrite (Nat.eqb_sym (length σ) k).
  destruct (Nat.ltb_spec k (length σ)) as [H|H].
  - destruct (Nat.eqb_spec k (length σ)); lia.
  - rewrite (proj2 (nth_error_None σ k) H). now destruct (Nat.eqb k (length σ)).
Qed.
Lemma pl_alloc_old σ c k : k < length σ -> pl_of (σ ++ [c]) k = pl_of σ k.
Proof. intros H. unfold pl_of. rewrite nth_snoc. now destruct (Nat.ltb_spec k (length σ)); [|lia]. Qed.
Lemma pl_alloc_new σ c : pl_of (σ ++ [c]) (length σ) = pl c.
Proof. unfold pl_of. now rewrite nth_snoc, Nat.ltb_irrefl, Nat.eqb_refl. Qed.

Lemma rc_out σ k : length σ <= k -> rc_of σ k = 0.
Proof. intros H. unfold rc_of. now rewrite (proj2 (nth_error_None σ k) H). Qed.
Lemma rc_of_lt σ l : 0 < rc_of σ l -> l < length σ.
Proof. intros H. destruct (Nat.lt_ge_cases l (length σ)); [assumption|]. rewrite rc_out in H by assumption. lia. Qed.

Lemma rc_drop σ h k : rc_of (drop_h σ h) k = rc_of σ k - tick (Ok h) k.
Proof. destruct h; [cbn; lia|apply rc_dec]. Qed.
Lemma pl_drop σ h k : pl_of (drop_h σ h) k = pl_of σ k.
Proof. destruct h; [reflexivity|apply pl_dec]. Qed.
Lemma len_drop σ h : length (drop_h σ h) = length σ.
Proof. destruct h; [reflexivity|apply len_dec]. Qed.

Definition wf (σ : store) (ρ : list hval) : Prop :=
  forall l, In (HRef l) ρ -> l < length σ /\ 1 <= rc_of σ l.

(** [result_ok ρ σ σ' r]: relative to the store [σ] the execution started from - no cell that
    existed is changed, its owner count grew by exactly the handle (if any) the result holds to
    it, and the result is either a context buffer (one more owner) or a fresh buffer with a
    single owner. *)
Definition result_ok (ρ : list hval) (σ σ' : store) (r : outcome hval) : Prop :=
  length σ <= length σ' /\
  (forall l, l < length σ -> pl_of σ' l = pl_of σ l) /\
  (forall l, l < length σ -> rc_of σ' l = rc_of σ l + tick r l) /\
  (forall k, r = Ok (HRef k) ->
     k < length σ' /\ (k < length σ -> In (HRef k) ρ) /\ (length σ <= k -> rc_of σ' k = 1)).

(** [frame σ σ' d]: [σ'] extends [σ], keeps the payload of every cell of [σ] and has raised its
    owner count by [d]. *)
Definition frame (σ σ' : store) (d : nat -> nat) : Prop :=
  length σ <= length σ' /\
  (forall l, l < length σ -> pl_of σ' l = pl_of σ l) /\
  (forall l, l < length σ -> rc_of σ' l = rc_of σ l + d l).

Lemma frame_refl σ : frame σ σ (fun _ => 0).
Proof. split; [lia|]. split; intros l _; [reflexivity|lia]. Qed.

Lemma frame_trans σ σ1 σ2 d1 d2 : frame σ σ1 d1 -> frame σ1 σ2 d2 -> frame σ σ2 (fun l => d1 l + d2 l).
Proof.
  intros (L1 & P1 & R1) (L2 & P2 & R2). split; [lia|]. split; intros l Hl.
  - rewrite P2, P1; auto; lia.
  - rewrite R2, R1; auto; lia.
Qed.

Lemma frame_drop σ σ' d d' h : frame σ σ' d -> (forall l, d l = d' l + tick (Ok h) l) ->
  frame σ (drop_h σ' h) d'.
Proof.
  intros (L & P & R) Hd. unfold frame. rewrite len_drop. split; [exact L|]. split; intros l Hl.
  - rewrite pl_drop. now apply P.
  - rewrite rc_drop, (R l Hl), Hd. lia.
Qed.

Lemma frame_wf ρ σ σ' d : wf σ ρ -> frame σ σ' d -> wf σ' ρ.
Proof. intros W (L & _ & R) l Hin. destruct (W l Hin) as [Hl Hr]. rewrite (R l Hl). split; lia. Qed.

Lemma frame_denote ρ σ σ' d : wf σ ρ -> frame σ σ' d -> map (denote σ') ρ = map (denote σ) ρ.
Proof.
  intros W (_ & P & _). apply map_ext_in. intros [z|l] Hin; [reflexivity|]. cbn [denote].
  destruct (W l Hin) as [Hl _]. now rewrite (P l Hl).
Qed.

Lemma result_ok_frame ρ σ σ' r : result_ok ρ σ σ' r -> frame σ σ' (tick r).
Proof. intros (L & P & R & _). exact (conj L (conj P R)). Qed.

Lemma result_ok_noref ρ σ σ' r : (forall k, r <> Ok (HRef k)) -> frame σ σ' (fun _ => 0) -> result_ok ρ σ σ' r.
Proof.
  intros Hr (L & P & R). split; [exact L|]. split; [exact P|]. split.
  - intros l Hl. rewrite (R l Hl). destruct r as [[z|k]| |]; [reflexivity|now destruct (Hr k)|reflexivity|reflexivity].
  - intros k E. now destruct (Hr k).
Qed.

Lemma result_ok_owned ρ σ σ' k : wf σ ρ -> result_ok ρ σ σ' (Ok (HRef k)) -> k < length σ' /\ 1 <= rc_of σ' k.
Proof.
  intros W (_ & _ & R & F). destruct (F k eq_refl) as (Hk & Hin & Hfr). split; [exact Hk|].
  destruct (Nat.lt_ge_cases k (length σ)) as [H|H]; [|rewrite (Hfr H); lia].
  rewrite (R k H). destruct (W k (Hin H)). lia.
Qed.

Lemma alloc_ok ρ σ p : result_ok ρ σ (σ ++ [{| rc := 1; pl := p |}]) (Ok (HRef (length σ))).
Proof.
  unfold result_ok. rewrite last_length. split; [lia|]. split; [intros l Hl; now apply pl_alloc_old|]. split.
  - intros l _. apply rc_alloc.
  - intros k [= <-]. split; [lia|]. split; [lia|]. intros _. rewrite rc_alloc, tick_same, rc_out; lia.
Qed.

(** Arc::make_mut keeps a sole owner's cell and otherwise moves the handle to a fresh copy. *)
Lemma make_mut_spec σ l σ1 m : l < length σ -> make_mut σ l = (σ1, m) ->
  length σ <= length σ1 /\ m < length σ1 /\ rc_of σ1 m = 1 /\ pl_of σ1 m = pl_of σ l /\
  (rc_of σ l = 1 /\ m = l \/ rc_of σ l <> 1 /\ m = length σ) /\
  (forall k, k < length σ -> k <> m -> pl_of σ1 k = pl_of σ k) /\
  (forall k, rc_of σ1 k = rc_of σ k + tick (Ok (HRef m)) k - tick (Ok (HRef l)) k).
Proof.
  intros Hl. unfold make_mut, alloc. destruct (Nat.eqb_spec (rc_of σ l) 1) as [E|E]; intros [= <- <-].
  - repeat split; auto. intros k. lia.
  - rewrite len_dec, last_length, pl_dec, pl_alloc_new.
    repeat split; auto.
    + rewrite rc_dec, rc_alloc, tick_same, rc_out, tick_other; lia.
    + intros k Hk _. rewrite pl_dec. now apply pl_alloc_old.
    + intros k. now rewrite rc_dec, rc_alloc.
Qed.

Section Add.
  Variables (ρ : list hval) (σ0 σ : store) (la lb : nat).
  Hypothesis W : wf σ0 ρ.
  Hypothesis L : length σ0 <= length σ.
  Hypothesis R : forall l, l < length σ0 ->
    rc_of σ l = rc_of σ0 l + (if Nat.eqb la l then 1 else 0) + (if Nat.eqb lb l then 1 else 0).
  Hypothesis A : la < length σ /\ (la < length σ0 -> In (HRef la) ρ) /\ (length σ0 <= la -> rc_of σ la = 1 /\ lb <> la).
  Hypothesis B : lb < length σ /\ (lb < length σ0 -> In (HRef lb) ρ) /\ (length σ0 <= lb -> rc_of σ lb = 1 /\ lb <> la).

  Lemma old_right_shared : lb < length σ0 -> 2 <= rc_of σ lb.
  Proof using W L R A B.
    intros H. destruct B as (_ & Bin & _). destruct (W lb (Bin H)) as [_ Hrc].
    rewrite (R lb H), Nat.eqb_refl. lia.
  Qed.
End Add.

(** [+] on two buffers of one kind, which both end in [dec (set_pl σ2 m p) lb]: [m] comes from
    make_mut on the left handle and [σ2] is the store after make_mut, possibly with the right
    buffer emptied when the right handle was its only owner.  A context buffer has a second
    owner, so make_mut copies it and it is never emptied. *)
Lemma add_finish ρ σ0 σ la lb σ1 m σ2 p :
  wf σ0 ρ -> frame σ0 σ (fun l => tick (Ok (HRef la)) l + tick (Ok (HRef lb)) l) ->
  la < length σ -> lb < length σ ->
  (la < length σ0 -> In (HRef la) ρ) -> (lb < length σ0 -> In (HRef lb) ρ) ->
  (rc_of σ la = 1 -> la <> lb) ->
  make_mut σ la = (σ1, m) ->
  σ2 = σ1 \/ rc_of σ1 lb = 1 /\ (exists q, σ2 = set_pl σ1 lb q) ->
  result_ok ρ σ0 (dec (set_pl σ2 m p) lb) (Ok (HRef m)) /\ pl_of (dec (set_pl σ2 m p) lb) m = p /\
  pl_of σ1 m = pl_of σ la /\ pl_of σ1 lb = pl_of σ lb.
Proof.
  intros W (L & P & R) Hla Hlb Ain Bin Sole Em H2. cbv beta in R.
  destruct (make_mut_spec σ la σ1 m Hla Em) as (M1 & M2 & M3 & M4 & M5 & M6 & M7).
  assert (Mf : length σ0 <= m /\ m <> lb).
  { destruct M5 as [[E ->]|[E ->]]; [|lia]. split; [|now apply Sole].
    destruct (Nat.lt_ge_cases la (length σ0)) as [H|H]; [|exact H].
    destruct (W la (Ain H)) as [_ Old]. rewrite (R la H), tick_same in E. lia. }
  destruct Mf as [Mf Mne].
  assert (S2 : length σ2 = length σ1 /\ (forall k, rc_of σ2 k = rc_of σ1 k) /\
               forall k, k < length σ0 -> pl_of σ2 k = pl_of σ1 k).
  { destruct H2 as [->|(E & q & ->)]; [now repeat split|].
    split; [apply len_set|]. split; [intros k; apply rc_set|]. intros k Hk. apply pl_set_other. intros <-.
    destruct (W lb (Bin Hk)) as [_ Old]. rewrite M7, (tick_other m), (R lb Hk), tick_same in E by lia. lia. }
  destruct S2 as (L2 & R2 & P2).
  split; [|split; [|split; [exact M4|apply M6; auto]]].
  - unfold result_ok. rewrite len_dec, len_set, L2. split; [lia|]. split; [|split].
    + intros l Hl. rewrite pl_dec, pl_set_other, P2, M6, P by lia. reflexivity.
    + intros l Hl. rewrite rc_dec, rc_set, R2, M7, (R l Hl), !(tick_other m) by lia. lia.
    + intros k [= <-]. split; [lia|]. split; [lia|]. intros _.
      rewrite rc_dec, rc_set, R2, M3, tick_other by auto. lia.
  - rewrite pl_dec. apply pl_set_same. lia.
Qed.

Definition read (σ : store) (r : outcome hval) : outcome pval :=
  match r with Ok h => Ok (denote σ h) | Err c => Err c | Crash s => Crash s end.

(** Dropping the two operand handles undoes what evaluating the operands did to the counts. *)
Lemma drop_both σ σ2 ha hb : frame σ σ2 (fun l => tick (Ok ha) l + tick (Ok hb) l) ->
  frame σ (drop_h (drop_h σ2 ha) hb) (fun _ => 0).
Proof.
  intros F. apply (frame_drop _ _ (tick (Ok hb)) _ hb); [|reflexivity].
  apply (frame_drop _ _ _ _ ha F). intros l. lia.
Qed.

Lemma add_h_spec ρ σ σ1 σ2 ha hb σ' r : wf σ ρ ->
  result_ok ρ σ σ1 (Ok ha) -> result_ok ρ σ1 σ2 (Ok hb) -> add_h σ2 ha hb = (σ', r) ->
  result_ok ρ σ σ' r /\ read σ' r = padd (denote σ1 ha) (denote σ2 hb).
Proof.
  intros W Ra Rb.
  pose proof (frame_trans _ _ _ _ _ (result_ok_frame _ _ _ _ Ra) (result_ok_frame _ _ _ _ Rb)) as F.
  assert (Fail : result_ok ρ σ (drop_h (drop_h σ2 ha) hb) (Err EInvalid))
    by (apply result_ok_noref; [discriminate|now apply drop_both]).
  destruct ha as [x|la], hb as [y|lb]; cbn [add_h].
  - intros [= <- <-]. split; [|reflexivity]. apply result_ok_noref; [discriminate|exact (drop_both _ _ _ _ F)].
  - intros [= <- <-]. split; [exact Fail|]. cbn [read denote padd]. now destruct (pl_of σ2 lb).
  - intros [= <- <-]. split; [exact Fail|]. cbn [read denote padd]. now destruct (pl_of σ1 la).
  - destruct (result_ok_owned ρ σ σ1 la W Ra) as [Hla Hrc].
    destruct Ra as (La & _ & _ & Ha), Rb as (Lb & Pb & Rb & Hb).
    destruct (Ha la eq_refl) as (_ & Ain & _), (Hb lb eq_refl) as (Hlb & Bin & _).
    assert (Hla2 : la < length σ2) by lia.
    assert (Bin' : lb < length σ -> In (HRef lb) ρ) by (intros H; apply Bin; lia).
    assert (Sole' : rc_of σ2 la = 1 -> la <> lb) by (intros E ->; rewrite (Rb lb Hla), tick_same in E; lia).
    cbn [read denote padd]. rewrite <- (Pb la Hla).
    destruct (pl_of σ2 la) as [xa|sa] eqn:Epa, (pl_of σ2 lb) as [xb|sb] eqn:Epb.
    2, 3: intros [= <- <-]; now split.
    + unfold add_list. destruct (make_mut σ2 la) as [σ3 m] eqn:Em. intros [= <- <-].
      match goal with |- context [set_pl ?s m ?q] =>
        destruct (add_finish ρ σ σ2 la lb σ3 m s q W F Hla2 Hlb Ain Bin' Sole' Em) as (S1 & S2 & S3 & S4)
      end.
      { destruct (Nat.eqb_spec (rc_of σ3 lb) 1); [right; eauto|now left]. }
      split; [exact S1|]. cbn [read denote]. now rewrite S2, S3, S4, Epa, Epb.
    + unfold add_str. destruct (make_mut σ2 la) as [σ3 m] eqn:Em. intros [= <- <-].
      match goal with |- context [set_pl ?s m ?q] =>
        destruct (add_finish ρ σ σ2 la lb σ3 m s q W F Hla2 Hlb Ain Bin' Sole' Em (or_introl eq_refl)) as (S1 & S2 & S3 & S4)
      end.
      split; [exact S1|]. cbn [read denote]. now rewrite S2, S3, S4, Epa, Epb.
Qed.

Theorem eval_h_spec e : forall ρ σ σ' r, wf σ ρ -> eval_h ρ σ e = (σ', r) ->
  result_ok ρ σ σ' r /\ read σ' r = peval (map (denote σ) ρ) e.
Proof.
  induction e as [z|i|items|s|a IHa b IHb]; intros ρ σ σ' r W; cbn [eval_h peval].
  - intros [= <- <-]. split; [|reflexivity]. apply result_ok_noref; [discriminate|apply frame_refl].
  - rewrite nth_error_map. destruct (nth_error ρ i) as [[z|l]|] eqn:Ev; cbn [option_map clone_h]; intros [= <- <-].
    + split; [|reflexivity]. apply result_ok_noref; [discriminate|apply frame_refl].
    + destruct (W l (nth_error_In _ _ Ev)) as [Hl Hr]. split; [|cbn [read denote]; now rewrite pl_inc].
      unfold result_ok. rewrite len_inc. split; [lia|]. split; [intros k _; apply pl_inc|]. split.
      * intros k _. now apply rc_inc.
      * intros k [= <-]. split; [exact Hl|]. split; [intros _; exact (nth_error_In _ _ Ev)|lia].
    + split; [|reflexivity]. apply result_ok_noref; [discriminate|apply frame_refl].
  - cbn [alloc]. intros [= <- <-]. split; [apply alloc_ok|]. cbn [read denote]. now rewrite pl_alloc_new.
  - cbn [alloc]. intros [= <- <-]. split; [apply alloc_ok|]. cbn [read denote]. now rewrite pl_alloc_new.
  - destruct (eval_h ρ σ a) as [σ1 ra] eqn:Ea. destruct (IHa ρ σ σ1 ra W Ea) as [Ra Da].
    destruct ra as [ha|c|s]; cbn [read] in Da; rewrite <- Da; cbn [obind];
      [|intros [= <- <-]; now split|intros [= <- <-]; now split].
    pose proof (result_ok_frame _ _ _ _ Ra) as Fa. pose proof (frame_wf ρ σ σ1 _ W Fa) as W1.
    destruct (eval_h ρ σ1 b) as [σ2 rb] eqn:Eb. destruct (IHb ρ σ1 σ2 rb W1 Eb) as [Rb Db].
    rewrite (frame_denote ρ σ σ1 _ W Fa) in Db.
    pose proof (frame_trans _ _ _ _ _ Fa (result_ok_frame _ _ _ _ Rb)) as F.
    destruct rb as [hb|c|s]; cbn [read] in Db; rewrite <- Db; cbn [obind].
    2, 3: intros [= <- <-]; split; [|reflexivity]; apply result_ok_noref; [discriminate|];
          apply (frame_drop _ _ _ _ ha F); intros l; cbn [tick]; lia.
    exact (add_h_spec ρ σ σ1 σ2 ha hb σ' r W Ra Rb).
Qed.

(** Histories, each result dropped before the next execution: every execution yields what it yields
    alone, and every cell that existed keeps its payload and its count. *)
Theorem history_spec es : forall ρ σ σ' outs, wf σ ρ -> run_history ρ σ es = (σ', outs) ->
  outs = map (peval (map (denote σ) ρ)) es /\ length σ <= length σ' /\
  (forall l, l < length σ -> pl_of σ' l = pl_of σ l /\ rc_of σ' l = rc_of σ l).
Proof.
  induction es as [|e es IH]; intros ρ σ σ' outs W; cbn [run_history map].
  - intros [= <- <-]. repeat split; auto.
  - destruct (eval_h ρ σ e) as [σ1 r] eqn:Ee. destruct (eval_h_spec e ρ σ σ1 r W Ee) as [R1 D1].
    apply result_ok_frame in R1.
    set (σ2 := match r with Ok h => drop_h σ1 h | _ => σ1 end).
    assert (F2 : frame σ σ2 (fun _ => 0)).
    { unfold σ2. destruct r as [h| |]; [|exact R1|exact R1]. now apply (frame_drop _ _ _ _ h R1). }
    destruct (run_history ρ σ2 es) as [σ3 outs'] eqn:Eh. intros [= <- <-].
    destruct (IH ρ σ2 σ3 outs' (frame_wf ρ σ σ2 _ W F2) Eh) as (O3 & L3 & PR3).
    rewrite (frame_denote ρ σ σ2 _ W F2) in O3.
    destruct F2 as (L2 & P2 & R2). split; [|split; [lia|]].
    + f_equal; [|exact O3]. unfold read in D1. rewrite <- D1. now destruct r.
    + intros l Hl. destruct (PR3 l ltac:(lia)) as [-> ->]. rewrite (P2 l Hl), (R2 l Hl). split; [reflexivity|lia].
Qed.

(** With every result kept alive instead: read at the end, each is still what its program yields
    alone. *)
Theorem keep_spec es : forall ρ σ σ' rs, wf σ ρ -> run_keep ρ σ es = (σ', rs) ->
  map (read σ') rs = map (peval (map (denote σ) ρ)) es /\ length σ <= length σ' /\
  (forall l, l < length σ -> pl_of σ' l = pl_of σ l) /\
  (forall l, l < length σ -> rc_of σ l <= rc_of σ' l) /\
  Forall (fun r => forall k, r = Ok (HRef k) -> k < length σ') rs.
Proof.
  induction es as [|e es IH]; intros ρ σ σ' rs W; cbn [run_keep map].
  - intros [= <- <-]. repeat split; auto.
  - destruct (eval_h ρ σ e) as [σ1 r] eqn:Ee. destruct (eval_h_spec e ρ σ σ1 r W Ee) as [R1 D1].
    pose proof (result_ok_frame _ _ _ _ R1) as F1.
    destruct (run_keep ρ σ1 es) as [σ2 rs'] eqn:Ek. intros [= <- <-].
    destruct (IH ρ σ1 σ2 rs' (frame_wf ρ σ σ1 _ W F1) Ek) as (D2 & L2 & P2 & R2 & F2).
    rewrite (frame_denote ρ σ σ1 _ W F1) in D2.
    assert (Hk : forall k, r = Ok (HRef k) -> k < length σ1) by (intros k E; now destruct R1 as (_ & _ & _ & H); destruct (H k E)).
    destruct F1 as (L1 & P1 & R1'). split; [|split; [lia|split; [|split]]].
    + cbn [map]. f_equal; [|exact D2].
      rewrite <- D1. destruct r as [[z|k]|c|s]; cbn [read denote]; try reflexivity.
      now rewrite (P2 k (Hk k eq_refl)).
    + intros l Hl. rewrite (P2 l ltac:(lia)). now apply P1.
    + intros l Hl. specialize (R2 l ltac:(lia)). rewrite (R1' l Hl) in R2. lia.
    + constructor; [intros k E; specialize (Hk k E); lia|exact F2].
Qed.

(** owner counts are exactly the handles in existence; handles point into the store *)
Definition inv (c : cfg) : Prop :=
  forall l, rc_of (st c) l = cnt l (hs c) /\ (0 < cnt l (hs c) -> l < length (st c)).

Lemma cnt_cons x h k : cnt k (x :: h) = cnt k h + tick (Ok (HRef x)) k.
Proof.
  unfold cnt. cbn [count_occ tick]. destruct (Nat.eq_dec x k) as [->|H]; [rewrite Nat.eqb_refl; lia|].
  destruct (Nat.eqb_spec x k); [congruence|lia].
Qed.

Lemma cnt_nil k : cnt k [] = 0.
Proof. reflexivity. Qed.

Lemma cnt_remove1 l h k : cnt k (remove1 l h) = cnt k h - tick (Ok (HRef l)) k.
Proof.
  induction h as [|x h IH]; cbn [remove1]; [reflexivity|].
  destruct (Nat.eqb_spec x l) as [->|Hx]; rewrite !cnt_cons; [lia|]. rewrite IH.
  destruct (tick_cases l k) as [[<- ->]|[_ ->]]; [rewrite (tick_other x l Hx)|]; lia.
Qed.

(** Exact counts suffice: a counted handle then points into the store. *)
Lemma inv_intro c : (forall l, rc_of (st c) l = cnt l (hs c)) -> inv c.
Proof. intros H l. split; [apply H|]. rewrite <- H. apply rc_of_lt. Qed.

Lemma step_inv pinned c o c' :
  inv c -> (forall l, cnt l pinned <= cnt l (hs c)) -> step pinned c o = Some c' ->
  inv c' /\ (forall l, cnt l pinned <= cnt l (hs c')) /\
  (forall l, 0 < cnt l pinned -> pl_of (st c') l = pl_of (st c) l).
Proof.
  intros I P H. destruct o as [l|l|p|l p]; cbn [step] in H.
  - (* clone *)
    destruct (Nat.ltb_spec 0 (cnt l (hs c))) as [Hl|]; [|discriminate]. injection H as <-.
    split; [apply inv_intro|split]; cbn [st hs]; intros k.
    + rewrite rc_inc, cnt_cons by now apply I. now rewrite (proj1 (I k)).
    + rewrite cnt_cons. specialize (P k). lia.
    + intros _. apply pl_inc.
  - (* drop *)
    unfold free_handle in H. destruct (Nat.ltb_spec (cnt l pinned) (cnt l (hs c))) as [Hl|]; [|discriminate].
    injection H as <-. split; [apply inv_intro|split]; cbn [st hs]; intros k.
    + now rewrite rc_dec, cnt_remove1, (proj1 (I k)).
    + rewrite cnt_remove1. specialize (P k). destruct (tick_cases l k) as [[<- ->]|[_ ->]]; lia.
    + intros _. apply pl_dec.
  - (* alloc *)
    unfold alloc in H. injection H as <-. split; [apply inv_intro|split]; cbn [st hs]; intros k.
    + now rewrite rc_alloc, cnt_cons, (proj1 (I k)).
    + rewrite cnt_cons. specialize (P k). lia.
    + intros Hk. specialize (P k). apply pl_alloc_old. apply I. lia.
  - (* append through make_mut *)
    unfold free_handle in H. destruct (Nat.ltb_spec (cnt l pinned) (cnt l (hs c))) as [Hl|]; [|discriminate].
    destruct (I l) as [Rl Ll]. specialize (Ll ltac:(lia)).
    destruct (make_mut (st c) l) as [s1 m] eqn:Em. injection H as <-.
    destruct (make_mut_spec (st c) l s1 m Ll Em) as (M1 & M2 & M3 & M4 & M5 & M6 & M7).
    assert (Hhs : forall k, cnt k (if Nat.eqb m l then hs c else m :: remove1 l (hs c)) =
                            cnt k (hs c) + tick (Ok (HRef m)) k - tick (Ok (HRef l)) k).
    { intros k. destruct M5 as [[E ->]|[E ->]].
      - rewrite Nat.eqb_refl. lia.
      - replace (length (st c) =? l) with false by (symmetry; apply Nat.eqb_neq; lia).
        rewrite cnt_cons, cnt_remove1. destruct (tick_cases l k) as [[<- ->]|[_ ->]]; lia. }
    split; [apply inv_intro|split]; cbn [st hs]; intros k.
    + now rewrite rc_set, M7, Hhs, (proj1 (I k)).
    + rewrite Hhs. specialize (P k).
      destruct (tick_cases l k) as [[-> ->]|[_ ->]], (tick_cases m k) as [[-> ->]|[_ ->]]; lia.
    + (* the context holds a handle to [k], so [k] is not the cell written *)
      intros Hk. specialize (P k). destruct (I k) as [Ik Lk]. specialize (Lk ltac:(lia)).
      rewrite pl_set_other; [apply M6; [exact Lk|]|]; (destruct M5 as [[E ->]|[E ->]]; [intros <-; lia|lia]).
Qed.

Theorem any_interleaving pinned ops : forall c c',
  inv c -> (forall l, cnt l pinned <= cnt l (hs c)) -> steps pinned c ops = Some c' ->
  inv c' /\ (forall l, cnt l pinned <= cnt l (hs c')) /\
  (forall l, 0 < cnt l pinned -> pl_of (st c') l = pl_of (st c) l).
Proof.
  induction ops as [|o ops IH]; intros c c' I P H; cbn [steps] in H.
  - injection H as <-. repeat split; auto; apply I.
  - destruct (step pinned c o) as [c1|] eqn:E; [|discriminate].
    destruct (step_inv pinned c o c1 I P E) as (I1 & P1 & Q1).
    destruct (IH c1 c' I1 P1 H) as (I2 & P2 & Q2).
    split; [exact I2|]. split; [exact P2|]. intros l Hl. rewrite (Q2 l Hl). now apply Q1.
Qed.
