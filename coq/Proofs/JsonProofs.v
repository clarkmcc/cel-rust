(** C18: Value::json, and the JSON half of C17 (commutation with serde_json). *)
From Cel.Model Require Import Json.
From Cel.Proofs Require Import BaseFacts ValueFacts CompareProofs SerdeProofs.
From Coq Require Import Lia.
Open Scope Z_scope.

Definition jset_all (tjs : list (str * json)) (m0 : list (str * json)) : list (str * json) :=
  fold_left (fun m tj => jobj_set (fst tj) (snd tj) m) tjs m0.

Definition jv_entry (kv : key * value) : outcome (str * json) :=
  omap (pair (key_text (fst kv))) (json_of_value (snd kv)).

Lemma json_list l : json_of_value (VList l) = omap JArr (mapM json_of_value l).
Proof.
  apply (rev_loop_mapM json_of_value JArr jv_list); [reflexivity|].
  intros x l' acc. cbn [jv_list]. now destruct (json_of_value x).
Qed.
Lemma json_map m : json_of_value (VMap m) = omap (fun tjs => JObj (jset_all tjs [])) (mapM jv_entry m).
Proof.
  apply (loop_mapM jv_entry (fun m tj => jobj_set (fst tj) (snd tj) m) JObj jv_map); [reflexivity|].
  intros [k x] l s. cbn [jv_map]. unfold jv_entry. cbn [fst snd]. now destruct (json_of_value x).
Qed.

(** The structure of the exported document *)
Inductive JExp : value -> json -> Prop :=
| JENull : JExp VNull JNull
| JEBool b : JExp (VBool b) (JBool b)
| JEInt z : JExp (VInt z) (JInt z)
| JEUInt z : JExp (VUInt z) (JInt z)
| JEDbl f : JExp (VDbl f) (if is_finite f then JFloat f else JNull)
| JEStr s : JExp (VStr s) (JStr s)
| JEBytes b : JExp (VBytes b) (JStr (base64 b))
| JETs ns off : JExp (VTs ns off) (JStr (rfc3339 ns off))
| JEDur ns : in_i64 ns = true -> JExp (VDur ns) (JInt ns)
| JEList l js : Forall2 JExp l js -> JExp (VList l) (JArr js)
| JEMap m tjs :
    Forall2 (fun kv tj => fst tj = key_text (fst kv) /\ JExp (snd kv) (snd tj)) m tjs ->
    JExp (VMap m) (JObj (jset_all tjs [])).

(** Export never panics, succeeds exactly on values without functions and oversized
    durations, and then returns the corresponding document *)
Theorem json_spec v : decides json_of_value JExp exportable v.
Proof.
  induction v as [l IH|m IH|n|n x _|v Hv] using value_ind'.
  - exact (decides_omap (decides_mapM _ _ _ _ IH) _ (json_list l) eq_refl (JEList l)).
  - exact (decides_omap (decides_mapM jv_entry _ _ _ (Forall_impl _ (decides_snd key_text json_of_value JExp exportable) IH))
             _ (json_map m) eq_refl (JEMap m)).
  - reflexivity.
  - reflexivity.
  - unfold decides. destruct v; try contradiction; cbn [json_of_value exportable]; try (split; [constructor|reflexivity]).
    destruct (in_i64 ns) eqn:E; [split; [now constructor|reflexivity]|reflexivity].
Qed.

(** Lookup in a JSON object, written out, after [jobj_set]: the last binding of a text wins. *)
Lemma jobj_get_set t t' (j : json) m :
  (fix get (m : list (str * json)) : option json :=
     match m with [] => None | (k, v) :: m' => if str_eqb t k then Some v else get m' end) (jobj_set t' j m) =
  if str_eqb t t' then Some j else
  (fix get (m : list (str * json)) : option json :=
     match m with [] => None | (k, v) :: m' => if str_eqb t k then Some v else get m' end) m.
Proof.
  induction m as [|[k v] m IH]; cbn [jobj_set]; [reflexivity|].
  destruct (str_eqb t' k) eqn:E2.
  - apply str_eqb_eq in E2. subst k. now destruct (str_eqb t t').
  - rewrite IH. destruct (str_eqb t k) eqn:E3; [|reflexivity].
    destruct (str_eqb t t') eqn:E4; [|reflexivity].
    apply str_eqb_eq in E3, E4. subst. rewrite str_eqb_refl in E2. discriminate.
Qed.

Lemma jobj_set_fresh t j m : ~ In t (map fst m) -> jobj_set t j m = m ++ [(t, j)].
Proof.
  induction m as [|[k v] m IH]; cbn [jobj_set map fst In app]; [reflexivity|]. intros H.
  destruct (str_eqb t k) eqn:E; [apply str_eqb_eq in E; subst; tauto|]. rewrite IH; tauto.
Qed.

Lemma jset_all_distinct tjs acc : NoDup (map fst acc ++ map fst tjs) -> jset_all tjs acc = acc ++ tjs.
Proof. apply (fold_set_distinct jobj_set), jobj_set_fresh. Qed.

Lemma str_distinct_NoDup l : str_distinct l = true -> NoDup l.
Proof.
  induction l as [|s l IH]; cbn [str_distinct]; [constructor|].
  intros H. apply andb_prop in H as [H1 H2]. constructor; [|now apply IH].
  intros Hin. apply negb_true_iff, not_true_iff_false in H1. apply H1.
  apply existsb_exists. exists s. split; [exact Hin|apply str_eqb_refl].
Qed.

Definition jwrap (d : sdata) (j : json) : json :=
  match d with
  | SNewtypeVariant n _ | STupleVariant n _ | SStructVariant n _ => JObj [(n, j)]
  | _ => j
  end.

Definition jd_field (nx : str * sdata) : outcome (str * json) :=
  omap (pair (fst nx)) (json_direct (snd nx)).
Definition jd_entry (kx : sdata * sdata) : outcome (str * json) :=
  let! t := jkey (fst kx) in omap (pair t) (json_direct (snd kx)).

Lemma jd_seq_mapM l : jd_seq l [] = mapM json_direct l.
Proof.
  rewrite <- (omap_id (mapM json_direct l)). apply (rev_loop_mapM json_direct (fun js => js) jd_seq); [reflexivity|].
  intros x l' acc. cbn [jd_seq]. now destruct (json_direct x).
Qed.
Lemma jd_fields_mapM fs m : jd_fields fs m = omap (fun tjs => jset_all tjs m) (mapM jd_field fs).
Proof.
  apply (loop_mapM jd_field (fun m tj => jobj_set (fst tj) (snd tj) m) (fun m => m) jd_fields); [reflexivity|].
  intros [n x] l s. cbn [jd_fields]. unfold jd_field. cbn [fst snd]. now destruct (json_direct x).
Qed.
Lemma jd_map_mapM es m : jd_map es m = omap (fun tjs => JObj (jset_all tjs m)) (mapM jd_entry es).
Proof.
  apply (loop_mapM jd_entry (fun m tj => jobj_set (fst tj) (snd tj) m) JObj jd_map); [reflexivity|].
  intros [k x] l s. cbn [jd_map]. unfold jd_entry. cbn [fst snd].
  destruct (jkey k); cbn [obind]; [|reflexivity..]. now destruct (json_direct x).
Qed.

Lemma json_direct_shape d :
  json_direct d = match shape_of d with
                  | Leaf => json_direct d
                  | Inner d' => omap (jwrap d) (json_direct d')
                  | Items l => omap (fun js => jwrap d (JArr js)) (mapM json_direct l)
                  | Entries es => omap (fun tjs => JObj (jset_all tjs [])) (mapM jd_entry es)
                  | Fields fs => omap (fun tjs => jwrap d (JObj (jset_all tjs []))) (mapM jd_field fs)
                  end.
Proof.
  destruct (shape_of d) as [|d'|l|es|fs] eqn:E; [reflexivity| | | |].
  - destruct d; try discriminate E; injection E as <-; cbn [json_direct jwrap]; [symmetry; apply omap_id..|reflexivity].
  - rewrite <- jd_seq_mapM. destruct d; try discriminate E; injection E as <-; reflexivity.
  - destruct d; try discriminate E. injection E as <-. apply jd_map_mapM.
  - transitivity (let! m := jd_fields fs [] in Ok (jwrap d (JObj m))).
    + destruct d; try discriminate E; injection E as <-; reflexivity.
    + rewrite jd_fields_mapM. now destruct (mapM jd_field fs).
Qed.

Lemma jrepr_shape d :
  jrepr d = match shape_of d with
            | Leaf => jrepr d
            | Inner d' => jrepr d'
            | Items l => forallb jrepr l
            | Entries es => forallb (fun kx => match kx with (k, x) => jkey_ok k && jrepr x end) es &&
                            str_distinct (map (fun kx => jkey_text (fst kx)) es)
            | Fields fs => forallb (fun nx => match nx with (_, x) => jrepr x end) fs && str_distinct (map fst fs)
            end.
Proof. now destruct d. Qed.

Lemma json_swrap d v : json_of_value (swrap d v) = omap (jwrap d) (json_of_value v).
Proof.
  destruct d; cbn [swrap jwrap]; try (symmetry; apply omap_id);
    rewrite json_map; cbn [mapM]; unfold jv_entry; cbn [fst snd key_text]; now destruct (json_of_value v).
Qed.

(** Entries with distinct key texts are inserted and exported one by one. *)
Lemma json_set_all kvs tjs : Forall2 (fun kv tj => jv_entry kv = Ok tj) kvs tjs -> NoDup (map fst tjs) ->
  json_of_value (VMap (set_all kvs [])) = Ok (JObj (jset_all tjs [])).
Proof.
  intros H Hd. rewrite (set_all_distinct kvs []); [cbn [app]; now rewrite json_map, (mapM_ok _ _ _ H)|].
  apply (NoDup_map_inv key_text). cbn [map app]. rewrite map_map, (Forall2_map_eq _ fst _ _ _ (fun kv tj => omap_pair_fst _ _ tj) H).
  exact Hd.
Qed.

Lemma jkey_key_ser k : forall t, jkey k = Ok t -> exists k', key_ser k = Ok k' /\ key_text k' = t.
Proof.
  induction k; cbn [jkey key_ser]; try discriminate; try exact IHk; intros t; try (intros [= <-]; eauto).
  destruct (is_finite f); discriminate.
Qed.

(** C17: conversion commutes with serde_json on JSON-representable data. *)
Definition commutes (d : sdata) : Prop :=
  jrepr d = true -> exists v j, to_value d = Ok v /\ json_of_value v = Ok j /\ json_direct d = Ok j.

Lemma field_commutes nx : commutes (snd nx) -> (match nx with (_, x) => jrepr x end) = true ->
  exists kv tj, tv_field nx = Ok kv /\ jv_entry kv = Ok tj /\ jd_field nx = Ok tj.
Proof.
  destruct nx as [n x]. cbn [snd]. intros Hx H. destruct (Hx H) as (v & j & Hv & Hj & Hd).
  exists (KStr n, v), (n, j). unfold tv_field, jv_entry, jd_field. cbn [fst snd]. now rewrite Hv, Hj, Hd.
Qed.

Lemma entry_commutes kx : commutes (snd kx) -> (match kx with (k, x) => jkey_ok k && jrepr x end) = true ->
  exists kv tj, tv_entry kx = Ok kv /\ jv_entry kv = Ok tj /\ jd_entry kx = Ok tj.
Proof.
  destruct kx as [k x]. cbn [snd]. intros Hx H. apply andb_prop in H as [H0 H1].
  destruct (Hx H1) as (v & j & Hv & Hj & Hd). unfold jkey_ok in H0.
  destruct (jkey k) as [t| |] eqn:Ek; try discriminate. destruct (jkey_key_ser _ _ Ek) as (k' & Hk & <-).
  exists (k', v), (key_text k', j). unfold tv_entry, jv_entry, jd_entry. cbn [fst snd].
  now rewrite Hk, Hv, Hj, Ek, Hd.
Qed.

Lemma jd_entry_key kx tj : jd_entry kx = Ok tj -> jkey_text (fst kx) = fst tj.
Proof.
  unfold jd_entry, jkey_text. destruct (jkey (fst kx)); cbn [obind]; [apply omap_pair_fst|discriminate..].
Qed.

Theorem conversion_commutes d : commutes d.
Proof.
  revert d. apply sdata_ind'. intros d IH. unfold commutes.
  rewrite (jrepr_shape d), (to_value_shape d), (json_direct_shape d).
  destruct (shape_of d) as [|d'|l|es|fs] eqn:E; intros Hr.
  - destruct d; try discriminate E; try discriminate Hr; eexists; eexists; repeat split.
  - destruct (IH Hr) as (v & j & -> & Hj & ->). exists (swrap d v), (jwrap d j).
    repeat split. now rewrite json_swrap, Hj.
  - destruct (Forall_chain to_value json_of_value (fun x j => json_direct x = Ok j) jrepr l IH Hr)
      as (vs & js & Hv & Hj & Hd).
    rewrite (mapM_ok _ _ _ Hv), (mapM_ok _ _ _ Hd). eexists; eexists. repeat split.
    now rewrite json_swrap, json_list, (mapM_ok _ _ _ Hj).
  - apply andb_prop in Hr as [H1 H2].
    destruct (Forall_chain tv_entry jv_entry (fun kx tj => jd_entry kx = Ok tj) _ es (Forall_impl _ entry_commutes IH) H1)
      as (kvs & tjs & Hv & Hj & Hd).
    rewrite (mapM_ok _ _ _ Hv), (mapM_ok _ _ _ Hd). eexists; eexists. repeat split.
    apply (json_set_all _ _ Hj). rewrite <- (Forall2_map_eq _ fst _ _ _ jd_entry_key Hd).
    now apply str_distinct_NoDup.
  - apply andb_prop in Hr as [H1 H2].
    destruct (Forall_chain tv_field jv_entry (fun nx tj => jd_field nx = Ok tj) _ fs (Forall_impl _ field_commutes IH) H1)
      as (kvs & tjs & Hv & Hj & Hd).
    rewrite (mapM_ok _ _ _ Hv), (mapM_ok _ _ _ Hd). eexists; eexists. repeat split.
    cbn [omap obind]. rewrite json_swrap, (json_set_all _ _ Hj); [reflexivity|].
    rewrite <- (Forall2_map_eq fst fst _ _ _ (fun nx tj => omap_pair_fst _ _ tj) Hd). now apply str_distinct_NoDup.
Qed.

(** C18: importing the exported document gives back an equal value *)
Definition reimports (v : value) : Prop :=
  json_native v = true ->
  exists j v', json_of_value v = Ok j /\ to_value (sdata_of_json j) = Ok v' /\ v_eq v' v = true.

Lemma entry_reimports kv : reimports (snd kv) ->
  (match kv with (KStr _, x) => json_native x | _ => false end) = true ->
  exists tj kv', jv_entry kv = Ok tj /\ tv_entry (SStr (fst tj), sdata_of_json (snd tj)) = Ok kv' /\
                 fst kv = fst kv' /\ v_eq (snd kv') (snd kv) = true.
Proof.
  destruct kv as [[| | |s] x]; try discriminate. cbn [snd]. intros Hx H.
  destruct (Hx H) as (j & v' & Hj & Hv & He). exists (s, j), (KStr s, v').
  unfold jv_entry, tv_entry. cbn [fst snd key_text key_ser obind]. now rewrite Hj, Hv.
Qed.

(** The imported entries: same keys in the same order, equal values. *)
Lemma same_entries_eq m m' :
  Forall2 (fun kv kv' => fst kv = fst kv' /\ v_eq (snd kv') (snd kv) = true) m m' ->
  NoDup (map fst m) -> v_eq (VMap m') (VMap m) = true.
Proof.
  intros HS Hd. apply v_eq_map. split.
  - rewrite <- (map_length fst m'), <- (map_length fst m). f_equal. symmetry.
    apply (Forall2_map_eq _ _ _ _ _ (fun kv kv' => @proj1 _ _) HS).
  - assert (G : forall s s', Forall2 (fun kv kv' => fst kv = fst kv' /\ v_eq (snd kv') (snd kv) = true) s s' ->
                incl s m ->
                Forall (fun kv' => exists v, assoc_get (fst kv') m = Some v /\ v_eq (snd kv') v = true) s').
    { induction 1 as [|[k v] [k' v'] s s' [Hk Hv] _ IH]; intros Hi; constructor.
      - cbn [fst snd] in *. subst k'. exists v. split; [|exact Hv]. apply (in_assoc_get _ _ _ Hd), Hi. now left.
      - apply IH. intros x Hx. apply Hi. now right. }
    exact (G m m' HS (incl_refl m)).
Qed.

Theorem import_export v : reimports v.
Proof.
  induction v as [l IH|m IH|n|n x _|v Hv] using value_ind'; unfold reimports; cbn [json_native]; intros Hn.
  - destruct (Forall_chain json_of_value (fun j => to_value (sdata_of_json j)) (fun v v' => v_eq v' v = true)
                json_native l IH Hn) as (js & vs' & Hj & Hv & He).
    exists (JArr js), (VList vs'). rewrite json_list, (mapM_ok _ _ _ Hj). repeat split.
    + cbn [sdata_of_json]. rewrite to_value_shape. cbn [shape_of swrap]. now rewrite mapM_map, (mapM_ok _ _ _ Hv).
    + apply v_eq_list. exact (Forall2_flip _ _ _ He).
  - apply andb_prop in Hn as [H1 H2]. apply str_distinct_NoDup in H2.
    destruct (Forall_chain jv_entry (fun tj => tv_entry (SStr (fst tj), sdata_of_json (snd tj)))
                (fun kv kv' => fst kv = fst kv' /\ v_eq (snd kv') (snd kv) = true) _ m
                (Forall_impl _ entry_reimports IH) H1) as (tjs & kvs' & Hj & Hv & He).
    rewrite <- map_map in H2. pose proof (NoDup_map_inv _ _ H2) as Hd.
    rewrite map_map, (Forall2_map_eq _ fst _ _ _ (fun kv tj => omap_pair_fst _ _ tj) Hj) in H2.
    exists (JObj tjs), (VMap kvs'). repeat split.
    + rewrite json_map, (mapM_ok _ _ _ Hj). cbn [omap obind]. now rewrite (jset_all_distinct tjs []).
    + cbn [sdata_of_json]. rewrite to_value_shape. cbn [shape_of].
      rewrite mapM_map, (mapM_ok _ _ _ Hv). cbn [omap obind]. rewrite (set_all_distinct kvs' []); [reflexivity|].
      cbn [map app]. now rewrite <- (Forall2_map_eq fst fst _ _ _ (fun kv kv' => @proj1 _ _) He).
    + now apply same_entries_eq.
  - discriminate.
  - discriminate.
  - destruct v; try contradiction; try discriminate; cbn [json_native] in Hn.
    (* [sdata_of_json] reads a non-negative [JInt] back as a uint: equal to the int under [v_eq] *)
    1, 2: exists (JInt z); cbn [json_of_value sdata_of_json]; destruct (z <? 0); eexists; repeat split; cbn; apply Z.eqb_refl.
    + exists (JFloat f), (VDbl f). cbn [json_of_value]. unfold jnum_of_f64. rewrite Hn. repeat split.
      apply feq_refl. now intros ->.
    + exists (JStr s), (VStr s). repeat split. apply str_eqb_refl.
    + exists (JBool b), (VBool b). repeat split. now destruct b.
    + exists JNull, VNull. repeat split.
Qed.

(** base64 loses nothing: a decoder inverts it on every byte string *)
Definition b64_val (c : N) : option N :=
  (if (65 <=? c) && (c <=? 90) then Some (c - 65)
   else if (97 <=? c) && (c <=? 122) then Some (c - 97 + 26)
   else if (48 <=? c) && (c <=? 57) then Some (c - 48 + 52)
   else if c =? 43 then Some 62 else if c =? 47 then Some 63 else None)%N.

Fixpoint unbase64 (s : str) : option (list N) :=
  match s with
  | [] => Some []
  | a :: b :: c :: d :: r =>
      match b64_val a, b64_val b with
      | Some va, Some vb =>
          let x := (va * 4 + vb / 16)%N in
          if (d =? 61)%N then
            match r with
            | [] => if (c =? 61)%N then Some [x]
                    else match b64_val c with
                         | Some vc => Some [x; ((vb mod 16) * 16 + vc / 4)%N]
                         | None => None
                         end
            | _ => None
            end
          else match b64_val c, b64_val d, unbase64 r with
               | Some vc, Some vd, Some rest =>
                   Some (x :: ((vb mod 16) * 16 + vc / 4)%N :: ((vc mod 4) * 64 + vd)%N :: rest)
               | _, _, _ => None
               end
      | _, _ => None
      end
  | _ => None
  end.

Lemma b64_table n : (n < 64)%N -> b64_val (b64_char n) = Some n /\ (b64_char n =? 61)%N = false.
Proof.
  intros H.
  assert (G : forallb (fun k => match b64_val (b64_char k) with
                                | Some m => (m =? k)%N && negb (b64_char k =? 61)%N
                                | None => false
                                end) (map N.of_nat (seq 0 64)) = true) by (vm_compute; reflexivity).
  rewrite forallb_forall in G. specialize (G n).
  assert (Hin : In n (map N.of_nat (seq 0 64))).
  { apply in_map_iff. exists (N.to_nat n). split; [apply N2Nat.id|]. apply in_seq. lia. }
  specialize (G Hin). destruct (b64_val (b64_char n)) as [m|]; [|discriminate].
  apply andb_prop in G as [G1 G2]. apply N.eqb_eq in G1. subst m. split; [reflexivity|].
  now destruct (b64_char n =? 61)%N.
Qed.
Lemma b64_val_char n : (n < 64)%N -> b64_val (b64_char n) = Some n.
Proof. apply b64_table. Qed.
Lemma b64_char_not_pad n : (n < 64)%N -> (b64_char n =? 61)%N = false.
Proof. apply b64_table. Qed.

(** The sextets of a group are quotients and remainders of its bytes by constants.  The setting
    reaches every file that loads this one. *)
Ltac Zify.zify_post_hook ::= Z.to_euclidean_division_equations.

Theorem base64_roundtrip : forall b, Forall (fun x => (x < 256)%N) b -> unbase64 (base64 b) = Some b.
Proof.
  induction b as [|x|x y|x y z r IH] using list_ind3; intros Hb.
  - reflexivity.
  - inversion Hb as [|? ? Hx _]; subst. cbn [base64 unbase64]. rewrite !b64_val_char by lia.
    cbn [N.eqb Pos.eqb]. do 2 f_equal. lia.
  - inversion Hb as [|? ? Hx Hb1]; subst. inversion Hb1 as [|? ? Hy _]; subst. cbn [base64 unbase64].
    rewrite !b64_val_char, b64_char_not_pad by lia. cbn [N.eqb Pos.eqb]. do 2 f_equal; [lia|f_equal; lia].
  - inversion Hb as [|? ? Hx Hb1]; subst. inversion Hb1 as [|? ? Hy Hb2]; subst.
    inversion Hb2 as [|? ? Hz Hr]; subst.
    change (base64 (x :: y :: z :: r)) with
      ([b64_char (x / 4); b64_char ((x mod 4) * 16 + y / 16); b64_char ((y mod 16) * 4 + z / 64);
        b64_char (z mod 64)]%N ++ base64 r).
    cbn [app unbase64]. rewrite !b64_val_char, b64_char_not_pad, (IH Hr) by lia.
    do 2 f_equal; [lia|]. f_equal; [lia|]. f_equal. lia.
Qed.
