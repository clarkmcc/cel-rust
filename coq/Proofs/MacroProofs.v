(** C10: the comprehension macros compute their defining folds. *)
From Coq Require Import String.
From Cel.Model Require Import Eval Macros.
From Cel.Proofs Require Import BaseFacts EvalBase ContextProofs FrameProofs CtxEquiv LogicProofs.
From Coq Require Import Lia.

(** The context a macro body sees for one element: the enclosing context, the hidden
    accumulator, and the iteration variable (innermost). *)
Definition bind (c : ctx) (acc : value) (x : str) (it : value) : ctx :=
  define (define (push c) accu acc) x it.

Lemma lookup_bind c acc x it y :
  lookup (bind c acc x it) y =
  if str_eqb y x then Ok it else if str_eqb y accu then Ok acc else lookup c y.
Proof. unfold bind. now rewrite !lookup_define, lookup_push. Qed.

Lemma lookup_bind_accu c acc x it : str_eqb x accu = false ->
  lookup (bind c acc x it) accu = Ok acc.
Proof. intros Hx. now rewrite lookup_bind, (str_eqb_sym accu x), Hx. Qed.

(** Invariant of the loop context: it holds the accumulator and otherwise differs from the
    enclosing context only in (stale) iteration-variable bindings. *)
Definition loop_inv (c c' : ctx) (x : str) (acc : value) : Prop :=
  lookup c' accu = Ok acc /\
  agree (fun n => str_eqb n accu = false /\ str_eqb n x = false) c' c.

Lemma inv_init c x v : loop_inv c (define (push c) accu v) x v.
Proof.
  split; [apply lookup_define_same|].
  apply agree_define_l; [now intros [H _]|apply agree_push_l, agree_refl].
Qed.

Lemma inv_step c c' x acc it acc' :
  loop_inv c c' x acc -> loop_inv c (define (define c' x it) accu acc') x acc'.
Proof.
  intros [_ Ho]. split; [apply lookup_define_same|].
  apply agree_define_l; [now intros [H _]|].
  apply agree_define_l; [|exact Ho]. intros [_ H]. now rewrite str_eqb_refl in H.
Qed.

Lemma inv_bind_equiv c c' x acc it :
  loop_inv c c' x acc -> ctx_equiv (define c' x it) (bind c acc x it).
Proof.
  intros [Ha Ho]. split; [exact (agree_funs _ _ _ Ho)|]. intros n. rewrite lookup_define, lookup_bind.
  destruct (str_eqb n x) eqn:E1; [reflexivity|].
  destruct (str_eqb n accu) eqn:E2; [|now apply (agree_lookup _ _ _ n Ho)].
  apply str_eqb_eq in E2. now subst.
Qed.

(** The fold the five macros run: while [cont acc] holds, [stepf acc it] gives the next accumulator
    and its log is appended (an error or a crash ends the fold); [resf] turns the accumulator the
    fold ends with into the result. *)
Section GFold.
  Variable cont : value -> bool.
  Variable stepf : value -> value -> result.
  Variable resf : value -> outcome value.

  Fixpoint gfold (items : list value) (acc : value) (log : list event) : result :=
    match items with
    | [] => (resf acc, log)
    | it :: rest =>
        if cont acc then
          match stepf acc it with
          | (Ok a', l) => gfold rest a' (log ++ l)
          | (Err e, l) => (Err e, log ++ l)
          | (Crash s, l) => (Crash s, log ++ l)
          end
        else (resf acc, log)
    end.
End GFold.

Lemma gfold_shift cont stepf resf items acc log :
  gfold cont stepf resf items acc log = prepend log (gfold cont stepf resf items acc []).
Proof.
  revert acc log; induction items as [|it rest IH]; intros acc log; cbn [gfold].
  - cbn [prepend]. now rewrite app_nil_r.
  - destruct (cont acc); [|cbn [prepend]; now rewrite app_nil_r].
    destruct (stepf acc it) as [[a'|e|s] l]; cbn [app]; try reflexivity.
    now rewrite (IH a' (log ++ l)), (IH a' l), prepend_app.
Qed.

Lemma gfold_stop cont stepf resf items acc log :
  cont acc = false -> gfold cont stepf resf items acc log = (resf acc, log).
Proof. intros H. destruct items; cbn [gfold]; now rewrite ?H. Qed.

Lemma comp_loop_gfold c x cond step res cont resf :
  (forall c' acc, lookup c' accu = Ok acc -> exists vc, eval c' cond = (Ok vc, []) /\ to_bool vc = cont acc) ->
  (forall c' acc, lookup c' accu = Ok acc -> eval c' res = (resf acc, [])) ->
  forall items c' acc log, loop_inv c c' x acc ->
  comp_loop eval x accu cond step res items c' log =
  gfold cont (fun acc it => eval (bind c acc x it) step) resf items acc log.
Proof.
  intros Hcond Hres. induction items as [|it rest IH]; intros c' acc log Hinv;
    cbn [comp_loop gfold]; pose proof Hinv as [Ha _].
  - rewrite (Hres c' acc Ha). now rewrite app_nil_r.
  - destruct (Hcond c' acc Ha) as (vc & Ec & Et). rewrite Ec, Et.
    destruct (cont acc).
    + rewrite (eval_equiv step _ _ (inv_bind_equiv c c' x acc it Hinv)).
      destruct (eval (bind c acc x it) step) as [[va|e|s] ls]; rewrite ?app_nil_l; try reflexivity.
      apply IH. exact (inv_step c c' x acc it va Hinv).
    + rewrite (Hres c' acc Ha). now rewrite !app_nil_r.
Qed.

(** Shape shared by the five macros: evaluate the range, then fold. *)
Lemma eval_comp_gfold c r x init cond step res vinit cont resf :
  (forall c0, eval c0 init = (Ok vinit, [])) ->
  (forall c' acc, lookup c' accu = Ok acc -> exists vc, eval c' cond = (Ok vc, []) /\ to_bool vc = cont acc) ->
  (forall c' acc, lookup c' accu = Ok acc -> eval c' res = (resf acc, [])) ->
  eval c (EComp r x accu init cond step res) =
  rbind (eval c r) (fun vr =>
    match range_items vr with
    | None => ret (Err EInvalid)
    | Some items => gfold cont (fun acc it => eval (bind c acc x it) step) resf items vinit []
    end).
Proof.
  intros Hinit Hcond Hres. rewrite eval_comp, Hinit, rbind_nil.
  apply range_fold_ext. intros items. apply (comp_loop_gfold c x cond step res cont resf Hcond Hres), inv_init.
Qed.

Lemma eval_accu c' acc : lookup c' accu = Ok acc -> eval c' e_accu = (Ok acc, []).
Proof. intros H. unfold e_accu. now rewrite eval_ident, H. Qed.

(** The two forms [eval_comp_gfold] takes: the result is the accumulator (all but [exists_one]); the loop
    never stops early (all but [all] and [exists]). *)
Lemma eval_comp_gfold_accu c r x init cond step vinit cont :
  (forall c0, eval c0 init = (Ok vinit, [])) ->
  (forall c' acc, lookup c' accu = Ok acc -> exists vc, eval c' cond = (Ok vc, []) /\ to_bool vc = cont acc) ->
  eval c (EComp r x accu init cond step e_accu) =
  rbind (eval c r) (fun vr =>
    match range_items vr with
    | None => ret (Err EInvalid)
    | Some items => gfold cont (fun acc it => eval (bind c acc x it) step) Ok items vinit []
    end).
Proof. intros Hinit Hcond. apply (eval_comp_gfold c r x _ _ _ _ vinit cont Ok Hinit Hcond). exact eval_accu. Qed.

Lemma eval_comp_gfold_true c r x init step res vinit resf :
  (forall c0, eval c0 init = (Ok vinit, [])) ->
  (forall c' acc, lookup c' accu = Ok acc -> eval c' res = (resf acc, [])) ->
  eval c (EComp r x accu init (ELit (VBool true)) step res) =
  rbind (eval c r) (fun vr =>
    match range_items vr with
    | None => ret (Err EInvalid)
    | Some items => gfold (fun _ => true) (fun acc it => eval (bind c acc x it) step) resf items vinit []
    end).
Proof.
  intros Hinit Hres. apply (eval_comp_gfold c r x _ _ _ _ vinit (fun _ => true) resf Hinit); [|exact Hres].
  intros c' acc _. exists (VBool true). split; reflexivity.
Qed.

Fixpoint all_spec (body : value -> result) (items : list value) : result :=
  match items with
  | [] => (Ok (VBool true), [])
  | it :: rest =>
      match body it with
      | (Ok v, l) => if to_bool v then let '(r, l') := all_spec body rest in (r, l ++ l')
                     else (Ok (VBool false), l)
      | (Err e, l) => (Err e, l)
      | (Crash s, l) => (Crash s, l)
      end
  end.

Definition all_cont (acc : value) : bool := match acc with VBool b => b | _ => true end.

Lemma all_gfold c x p items : str_eqb x accu = false ->
  gfold all_cont (fun acc it => eval (bind c acc x it) (e_and e_accu p)) Ok items
        (VBool true) [] =
  all_spec (fun it => eval (bind c (VBool true) x it) p) items.
Proof.
  intros Hx. induction items as [|it rest IH]; cbn [gfold all_spec all_cont]; [reflexivity|].
  rewrite eval_and.
  rewrite (eval_accu _ (VBool true)) by now apply lookup_bind_accu.
  cbn [rbind to_bool app].
  destruct (eval (bind c (VBool true) x it) p) as [[v|e|s] l]; cbn [rbind ret]; rewrite ?app_nil_r;
    try reflexivity.
  destruct (to_bool v).
  - rewrite gfold_shift, IH. reflexivity.
  - now rewrite gfold_stop.
Qed.

Theorem all_correct c r x p : str_eqb x accu = false ->
  eval c (expand_all r x p) =
  rbind (eval c r) (fun vr =>
    match range_items vr with
    | None => ret (Err EInvalid)
    | Some items => all_spec (fun it => eval (bind c (VBool true) x it) p) items
    end).
Proof.
  intros Hx. unfold expand_all.
  rewrite (eval_comp_gfold_accu c r x _ _ _ (VBool true) all_cont).
  - apply range_fold_ext. intros items. now apply all_gfold.
  - reflexivity.
  - intros c' acc Ha. exists (match acc with VBool b => VBool b | _ => VBool true end). split.
    + unfold call. rewrite (eval_unop _ _ UNsf), (eval_accu c' acc Ha) by reflexivity.
      now destruct acc.
    + destruct acc; reflexivity.
Qed.

(** exists: the accumulator holds the last (falsy) raw body value; the macro stops at the
    first truthy one and returns it. *)
Fixpoint exists_spec (body : value -> value -> result) (items : list value) (acc : value)
  : result :=
  match items with
  | [] => (Ok acc, [])
  | it :: rest =>
      match body acc it with
      | (Ok v, l) => if to_bool v then (Ok v, l)
                     else let '(r, l') := exists_spec body rest v in (r, l ++ l')
      | (Err e, l) => (Err e, l)
      | (Crash s, l) => (Crash s, l)
      end
  end.

Definition exists_cont (acc : value) : bool := negb (to_bool acc).

Lemma exists_gfold c x p items : str_eqb x accu = false ->
  forall acc, to_bool acc = false ->
  gfold exists_cont (fun acc it => eval (bind c acc x it) (e_or e_accu p)) Ok items acc [] =
  exists_spec (fun acc it => eval (bind c acc x it) p) items acc.
Proof.
  intros Hx. induction items as [|it rest IH]; intros acc Hacc; cbn [gfold exists_spec]; [reflexivity|].
  unfold exists_cont at 1. rewrite Hacc. cbn [negb].
  rewrite eval_or.
  rewrite (eval_accu _ acc) by now apply lookup_bind_accu.
  cbn [rbind]. rewrite Hacc. cbn [app].
  destruct (eval (bind c acc x it) p) as [[v|e|s] l]; try reflexivity.
  destruct (to_bool v) eqn:Ev.
  - rewrite gfold_stop; [reflexivity|]. unfold exists_cont. now rewrite Ev.
  - rewrite gfold_shift, (IH v Ev). reflexivity.
Qed.

Theorem exists_correct c r x p : str_eqb x accu = false ->
  eval c (expand_exists r x p) =
  rbind (eval c r) (fun vr =>
    match range_items vr with
    | None => ret (Err EInvalid)
    | Some items => exists_spec (fun acc it => eval (bind c acc x it) p) items (VBool false)
    end).
Proof.
  intros Hx. unfold expand_exists.
  rewrite (eval_comp_gfold_accu c r x _ _ _ (VBool false) exists_cont).
  - apply range_fold_ext. intros items. now apply exists_gfold.
  - reflexivity.
  - intros c' acc Ha. exists (VBool (negb (to_bool acc))). split; [|reflexivity].
    unfold call. rewrite (eval_unop _ _ UNsf), (eval_unop _ _ UNot), (eval_accu c' acc Ha) by reflexivity.
    reflexivity.
Qed.

Fixpoint count_spec (body : value -> value -> result) (items : list value) (n : Z)
  : outcome Z * list event :=
  match items with
  | [] => (Ok n, [])
  | it :: rest =>
      match body (VInt n) it with
      | (Ok v, l) => let '(r, l') := count_spec body rest (if to_bool v then n + 1 else n)%Z in
                     (r, l ++ l')
      | (Err e, l) => (Err e, l)
      | (Crash s, l) => (Crash s, l)
      end
  end.

Definition exists_one_spec (body : value -> value -> result) (items : list value) : result :=
  let '(r, l) := count_spec body items 0 in
  (match r with
   | Ok k => Ok (VBool (k =? 1)%Z)
   | Err e => Err e
   | Crash s => Crash s
   end, l).

Definition one_step (p : expr) : expr :=
  e_cond p (call $"_+_" [e_accu; ELit (VInt 1)]) e_accu.
Definition one_res (acc : value) : outcome value := Ok (VBool (v_eq acc (VInt 1))).

Lemma eval_plus_one c' n : lookup c' accu = Ok (VInt n) ->
  eval c' (call $"_+_" [e_accu; ELit (VInt 1)]) = (chk_i64 (n + 1), []).
Proof.
  intros Ha. unfold call. rewrite (eval_strict _ _ BAdd), (eval_accu c' _ Ha) by (reflexivity || discriminate).
  reflexivity.
Qed.

Lemma one_gfold c x p items : str_eqb x accu = false ->
  forall n, (i64_min <= n)%Z -> (n + Z.of_nat (length items) <= i64_max)%Z ->
  gfold (fun _ => true) (fun acc it => eval (bind c acc x it) (one_step p)) one_res items (VInt n) [] =
  let '(r, l) := count_spec (fun acc it => eval (bind c acc x it) p) items n in
  (match r with Ok k => Ok (VBool (k =? 1)%Z) | Err e => Err e | Crash s => Crash s end, l).
Proof.
  intros Hx. induction items as [|it rest IH]; intros n Hlo Hhi; cbn [gfold count_spec].
  - reflexivity.
  - unfold one_step at 1. rewrite eval_cond.
    destruct (eval (bind c (VInt n) x it) p) as [[v|e|s] l]; cbn [rbind]; try reflexivity.
    cbn [length] in Hhi.
    destruct (to_bool v).
    + rewrite (eval_plus_one _ n) by now apply lookup_bind_accu.
      unfold chk_i64. rewrite (proj2 (in_i64_iff (n + 1))) by lia.
      rewrite app_nil_r, gfold_shift, IH by lia.
      destruct (count_spec _ rest (n + 1)%Z) as [r l']. reflexivity.
    + rewrite (eval_accu _ (VInt n)) by now apply lookup_bind_accu.
      rewrite app_nil_r. rewrite gfold_shift, IH by lia.
      destruct (count_spec _ rest n) as [r l']. reflexivity.
Qed.

Lemma exists_one_gfold c r x p :
  eval c (expand_exists_one r x p) =
  rbind (eval c r) (fun vr =>
    match range_items vr with
    | None => ret (Err EInvalid)
    | Some items =>
        gfold (fun _ => true) (fun acc it => eval (bind c acc x it) (one_step p)) one_res items (VInt 0) []
    end).
Proof.
  apply (eval_comp_gfold_true c r x _ _ _ (VInt 0) one_res).
  - reflexivity.
  - intros c' acc Ha. unfold call.
    rewrite (eval_strict _ _ BEq), (eval_accu c' acc Ha) by (reflexivity || discriminate). reflexivity.
Qed.

Fixpoint map_spec (flt : option (value -> value -> result)) (body : value -> value -> result)
         (items : list value) (acc : list value) : result :=
  match items with
  | [] => (Ok (VList acc), [])
  | it :: rest =>
      let go_body (lf : list event) :=
        match body (VList acc) it with
        | (Ok v, l) => let '(r, l') := map_spec flt body rest (acc ++ [v]) in (r, lf ++ l ++ l')
        | (Err e, l) => (Err e, lf ++ l)
        | (Crash s, l) => (Crash s, lf ++ l)
        end in
      match flt with
      | None => go_body []
      | Some f =>
          match f (VList acc) it with
          | (Ok fv, lf) => if to_bool fv then go_body lf
                           else let '(r, l') := map_spec flt body rest acc in (r, lf ++ l')
          | (Err e, lf) => (Err e, lf)
          | (Crash s, lf) => (Crash s, lf)
          end
      end
  end.

Definition push_step (f : expr) : expr := call $"_+_" [e_accu; EList [f]].

Lemma eval_push_step c' acc f : lookup c' accu = Ok (VList acc) ->
  eval c' (push_step f) =
  match eval c' f with
  | (Ok v, l) => (Ok (VList (acc ++ [v])), l)
  | (Err e, l) => (Err e, l)
  | (Crash s, l) => (Crash s, l)
  end.
Proof.
  intros Ha. unfold push_step, call.
  rewrite (eval_strict _ _ BAdd), (eval_accu c' _ Ha), eval_list by (reflexivity || discriminate). cbn [list_go].
  destruct (eval c' f) as [[v|e|s] l]; cbn; rewrite ?app_nil_r; reflexivity.
Qed.

Lemma map_gfold c x flt f b items : str_eqb x accu = false ->
  (forall a it, eval (bind c a x it) f = b a it) ->
  forall acc,
  gfold (fun _ => true)
        (fun a it => eval (bind c a x it)
                          (match flt with Some p => e_cond p (push_step f) e_accu | None => push_step f end))
        Ok items (VList acc) [] =
  map_spec (option_map (fun p a it => eval (bind c a x it) p) flt) b items acc.
Proof.
  intros Hx Hb. induction items as [|it rest IH]; intros acc; cbn [gfold map_spec]; [reflexivity|].
  destruct flt as [p|]; cbn [option_map].
  - rewrite eval_cond.
    destruct (eval (bind c (VList acc) x it) p) as [[fv|e|s] lf]; cbn [rbind]; try reflexivity.
    destruct (to_bool fv).
    + rewrite (eval_push_step _ acc), Hb by now apply lookup_bind_accu.
      destruct (b (VList acc) it) as [[v|e|s] l]; try reflexivity.
      rewrite gfold_shift, IH. destruct (map_spec _ _ rest (acc ++ [v])) as [r l']. cbn [prepend app]. now rewrite <- ?app_assoc.
    + rewrite (eval_accu _ (VList acc)) by now apply lookup_bind_accu.
      rewrite app_nil_r. rewrite gfold_shift, IH. cbn [option_map app].
      destruct (map_spec _ _ rest acc) as [r l']. reflexivity.
  - rewrite (eval_push_step _ acc), Hb by now apply lookup_bind_accu.
    destruct (b (VList acc) it) as [[v|e|s] l]; try reflexivity.
    rewrite gfold_shift, IH. destruct (map_spec _ _ rest (acc ++ [v])) as [r l']. cbn [prepend app]. now rewrite <- ?app_assoc.
Qed.

(** [b] stands for the evaluation of the transform [f]; filter is the case where it is the
    iteration variable itself. *)
Lemma map_fold_correct c r x flt f b : str_eqb x accu = false ->
  (forall a it, eval (bind c a x it) f = b a it) ->
  eval c (expand_map r x flt f) =
  rbind (eval c r) (fun vr =>
    match range_items vr with
    | None => ret (Err EInvalid)
    | Some items => map_spec (option_map (fun p a it => eval (bind c a x it) p) flt) b items []
    end).
Proof.
  intros Hx Hb. unfold expand_map.
  rewrite (eval_comp_gfold_true c r x _ _ _ (VList []) Ok).
  - apply range_fold_ext. intros items. exact (map_gfold c x flt f b items Hx Hb []).
  - reflexivity.
  - exact eval_accu.
Qed.

Theorem map_correct c r x flt f : str_eqb x accu = false ->
  eval c (expand_map r x flt f) =
  rbind (eval c r) (fun vr =>
    match range_items vr with
    | None => ret (Err EInvalid)
    | Some items =>
        map_spec (option_map (fun p a it => eval (bind c a x it) p) flt)
                 (fun a it => eval (bind c a x it) f) items []
    end).
Proof. intros Hx. now apply map_fold_correct. Qed.

Theorem filter_correct c r x p : str_eqb x accu = false ->
  eval c (expand_filter r x p) =
  rbind (eval c r) (fun vr =>
    match range_items vr with
    | None => ret (Err EInvalid)
    | Some items =>
        map_spec (Some (fun a it => eval (bind c a x it) p))
                 (fun a it => (Ok it, [])) items []
    end).
Proof.
  intros Hx. apply (map_fold_correct c r x (Some p) (EIdent x)); [exact Hx|].
  intros a it. now rewrite eval_ident, lookup_bind, str_eqb_refl.
Qed.

Lemma all_spec_pure (f : value -> bool) body items :
  (forall it, In it items -> body it = (Ok (VBool (f it)), [])) ->
  all_spec body items = (Ok (VBool (forallb f items)), []).
Proof.
  induction items as [|it rest IH]; intros H; cbn [all_spec forallb]; [reflexivity|].
  rewrite (H it (or_introl eq_refl)). cbn [to_bool].
  destruct (f it); cbn [andb]; [|reflexivity].
  rewrite IH; [reflexivity|]. intros it' Hin. apply H. now right.
Qed.

Lemma exists_spec_pure (f : value -> bool) body items :
  (forall acc it, In it items -> body acc it = (Ok (VBool (f it)), [])) ->
  exists_spec body items (VBool false) = (Ok (VBool (existsb f items)), []).
Proof.
  induction items as [|it rest IH]; intros H; cbn [exists_spec existsb]; [reflexivity|].
  rewrite (H _ it (or_introl eq_refl)). cbn [to_bool].
  destruct (f it); cbn [orb]; [reflexivity|].
  rewrite IH; [reflexivity|]. intros acc it' Hin. apply H. now right.
Qed.

Lemma count_spec_pure (f : value -> bool) body items n :
  (forall acc it, In it items -> body acc it = (Ok (VBool (f it)), [])) ->
  count_spec body items n = (Ok (n + Z.of_nat (length (filter f items)))%Z, []).
Proof.
  revert n; induction items as [|it rest IH]; intros n H; cbn [count_spec filter length].
  - now rewrite Z.add_0_r.
  - rewrite (H _ it (or_introl eq_refl)). cbn [to_bool].
    rewrite IH by (intros acc it' Hin; apply H; now right).
    destruct (f it); cbn [length app]; f_equal; f_equal; lia.
Qed.

(** An absent filter is the filter that accepts everything. *)
Lemma map_spec_pure (f : value -> bool) (g : value -> value) flt body items acc :
  (forall a it, In it items ->
     match flt with Some p => p a it = (Ok (VBool (f it)), []) | None => f it = true end) ->
  (forall a it, In it items -> body a it = (Ok (g it), [])) ->
  map_spec flt body items acc = (Ok (VList (acc ++ map g (filter f items))), []).
Proof.
  revert acc; induction items as [|it rest IH]; intros acc Hf Hg; cbn [map_spec filter map].
  - now rewrite app_nil_r.
  - assert (IH' : forall acc', map_spec flt body rest acc' = (Ok (VList (acc' ++ map g (filter f rest))), [])).
    { intros acc'. apply IH; intros a it' Hin; [apply Hf|apply Hg]; now right. }
    specialize (Hf (VList acc) it (or_introl eq_refl)). rewrite (Hg _ it (or_introl eq_refl)).
    destruct flt as [p|]; rewrite Hf; cbn [to_bool].
    + destruct (f it); rewrite IH'; [cbn [map app]; now rewrite <- app_assoc|reflexivity].
    + rewrite IH'. cbn [map app]. now rewrite <- app_assoc.
Qed.

Lemma all_stops body pre d post l :
  (forall it, In it pre -> exists v lg, body it = (Ok v, lg) /\ to_bool v = true) ->
  body d = (Ok (VBool false), l) ->
  all_spec body (pre ++ d :: post) = all_spec body (pre ++ [d]).
Proof.
  induction pre as [|it pre IH]; intros Hpre Hd; cbn [app all_spec].
  - rewrite Hd. reflexivity.
  - destruct (Hpre it (or_introl eq_refl)) as (v & lg & Hb & Ht). rewrite Hb, Ht.
    rewrite IH; [reflexivity| |assumption]. intros it' Hin. apply Hpre. now right.
Qed.
