(** C20: function calls bind receiver and arguments predictably. *)
From Cel.Model Require Import Eval.
From Cel.Proofs Require Import BaseFacts EvalBase.
From Coq Require Import Lia.

Definition positional (p : extractor) : bool :=
  match p with XArg _ | XArgOpt _ => true | _ => false end.

(** Positional extractors do not look at the receiver, and shifting the argument list by one
    shifts their indices by one. *)
Lemma xstep_shift p : positional p = true -> forall this this' r0 e0 rs es i log,
  xstep p this' (r0 :: rs) (e0 :: es) (S i) log =
  match xstep p this rs es i log with inl (x, i', l) => inl (x, S i', l) | inr e => inr e end.
Proof.
  destruct p; try discriminate; intros _ *; cbn [xstep]; unfold xpos; cbn [nth_error];
    destruct (nth_error rs i) as [[[v|c|s] l]|]; try reflexivity;
    unfold xconv; now destruct (from_value _ _ v).
Qed.

Lemma extract_shift rest : forallb positional rest = true ->
  forall this this' r0 e0 rs es i acc log,
  extract rest this rs es i acc log = extract rest this' (r0 :: rs) (e0 :: es) (S i) acc log.
Proof.
  induction rest as [|p rest IH]; intros Hp this this' r0 e0 rs es i acc log; [reflexivity|].
  cbn [forallb] in Hp. apply andb_true_iff in Hp as [Hp Hrest].
  rewrite !extract_cons, (xstep_shift p Hp this this' r0 e0).
  destruct (xstep p this rs es i log) as [[[x i'] l]|e]; [now apply IH|reflexivity].
Qed.

Definition plain_name (f : str) : Prop :=
  binop_of_name f = None /\ unop_of_name f = None /\ str_eqb f op_conditional = false.

Lemma dispatch_general c f rt rs args : plain_name f ->
  call_dispatch c f rt rs args = call_general c f rt rs args.
Proof.
  intros (H1 & H2 & H3). apply call_dispatch_cases; [reflexivity|intros; congruence..].
Qed.

(** For a function whose first parameter is [This<T>] and whose other parameters are
    positional, receiver style is function style with the receiver as first argument, whatever
    the receiver expression evaluates to: its log comes first either way. *)
Theorem receiver_style_equiv c f d t rest x args :
  plain_name f -> get_function c f = Some d -> params d = XThis t :: rest ->
  forallb positional rest = true ->
  eval c (ECall f (Some x) args) = eval c (ECall f None (x :: args)).
Proof.
  intros Hf Hd Hp Hrest. rewrite !eval_call. cbn [option_map map].
  rewrite !(dispatch_general _ _ _ _ _ Hf). unfold call_general. rewrite Hd.
  unfold call_fn. rewrite Hp.
  destruct (eval c x) as [[v|e|s] lx]; rewrite !extract_cons; cbn [xstep xrecv xpos nth_error app];
    try reflexivity.
  unfold xconv. destruct (from_value t false v); try reflexivity.
  now rewrite <- (extract_shift rest Hrest (Some v) None (Ok v, lx) x).
Qed.

(** What positional parameters receive: the argument values in order, each checked against its
    declared type; fewer arguments than parameters, or an argument of the wrong type, is an
    error. *)
Fixpoint bind_positional (ts : list vty) (vs : list value) : outcome (list value) :=
  match ts, vs with
  | [], _ => Ok []
  | _ :: _, [] => Err EArgCount
  | t :: ts', v :: vs' =>
      if has_vty t v then
        match bind_positional ts' vs' with
        | Ok xs => Ok (v :: xs)
        | Err c => Err c
        | Crash s => Crash s
        end
      else Err EInvalid
  end.

Definition okres (v : value) : result := (Ok v, []).

Lemma extract_positional ts : forall this vs pre es acc log,
  extract (map XArg ts) this (pre ++ map okres vs) es (length pre) acc log =
  match bind_positional ts vs with
  | Ok xs => (Ok (rev' acc ++ xs), log)
  | Err c => (Err c, log)
  | Crash s => (Crash s, log)
  end.
Proof.
  induction ts as [|t ts IH]; intros this vs pre es acc log; cbn [map extract bind_positional].
  - now rewrite app_nil_r.
  - rewrite nth_error_app2 by lia. rewrite Nat.sub_diag.
    destruct vs as [|v vs]; cbn [map nth_error]; [reflexivity|].
    unfold okres at 1. unfold from_value. destruct (has_vty t v); [|now rewrite app_nil_r].
    rewrite app_nil_r.
    specialize (IH this vs (pre ++ [okres v]) es (v :: acc) log).
    rewrite <- app_assoc, app_length, Nat.add_1_r in IH. cbn [app] in IH. rewrite IH.
    destruct (bind_positional ts vs); try reflexivity.
    now rewrite rev'_cons.
Qed.

Lemma bind_positional_spec ts : forall vs xs, bind_positional ts vs = Ok xs ->
  xs = firstn (length ts) vs /\ (length ts <= length vs)%nat /\
  Forall2 (fun t v => has_vty t v = true) ts xs.
Proof.
  induction ts as [|t ts IH]; intros vs xs; cbn [bind_positional].
  - intros [= <-]. cbn [length firstn]. repeat split; [lia|constructor].
  - destruct vs as [|v vs]; [discriminate|]. destruct (has_vty t v) eqn:E; [|discriminate].
    destruct (bind_positional ts vs) as [ys| |] eqn:Eb; try discriminate. intros [= <-].
    destruct (IH vs ys Eb) as (H1 & H2 & H3). cbn [length firstn]. repeat split.
    + now rewrite <- H1.
    + lia.
    + constructor; assumption.
Qed.

(** A host function registered under a built-in's name replaces it. *)
Lemma override c f d : get_function (add_function c f d) f = Some d.
Proof. unfold get_function, add_function; cbn [funs str_assoc]. now rewrite str_eqb_refl. Qed.
